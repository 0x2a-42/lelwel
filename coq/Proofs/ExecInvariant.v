(* The induction principle of ExecRel.v for a unary invariant, with one hypothesis per runtime
   operation: a state invariant that every runtime operation preserves, together with an
   invariant of saved parser states that save establishes and restore consumes, is preserved
   by every statement of every program (all inputs, oracles, fuel). *)
From Coq Require Import List Arith Bool.
From LV Require Import Cst Tree ABuild Runtime Exec ExecRel.
Import ListNotations.

Section GI.
Variable cx : pctx.
Variable prog : program.
Variable orc : oracles.
Variable I : pstate -> Prop.
Variable SI : saved -> Prop.

Hypothesis H_adv : forall st e s, I st -> p_advance cx st e = Ok s -> I s.
Hypothesis H_err : forall st d, I st -> I (p_error st d).
Hypothesis H_awe : forall st m s, I st -> p_advance_with_error cx st m = Ok s -> I s.
Hypothesis H_open : forall st mk s, I st -> p_open st = Ok (mk, s) -> I s.
Hypothesis H_ob : forall st m mk s, I st -> p_open_before st m = Ok (mk, s) -> I s.
Hypothesis H_close : forall st m k mk s, I st -> p_close st m k = Ok (mk, s) -> I s.
Hypothesis H_mark : forall st mk s, I st -> p_mark st = Ok (mk, s) -> I s.
Hypothesis H_ev : forall st e, I st -> I (add_event st e).
Hypothesis H_sic : forall st b, I st -> I (set_in_choice st b).
Hypothesis H_pad : forall st, I st -> I (push_assert_diag cx st).
Hypothesis H_get : forall st sv st0, I st -> p_get_state st = (sv, st0) -> I st0 /\ SI sv.
Hypothesis H_set : forall del st sv, I st -> SI sv -> I (p_set_state del st sv).
Hypothesis H_rel : forall st, I st -> I (p_release st).

Definition G (st st' : pstate) : Prop := I st -> I st'.

Theorem exec_I : forall fuel,
  (forall rec_of s e st o e' st',
      exec cx prog orc fuel rec_of s e st = XOk (o, e', st') -> G st st')
  /\ (forall rec_of b e st o e' st',
      exec_block cx prog orc fuel rec_of b e st = XOk (o, e', st') -> G st st')
  /\ (forall rec_of n l e st o e' st',
      exec_seq cx prog orc fuel rec_of n l e st = XOk (o, e', st') -> G st st')
  /\ (forall rec_of sv sel sk alts lp last m e1 st1 o e' st',
      exec_alts cx prog orc fuel rec_of sv sel sk alts lp last m e1 st1 = XOk (o, e', st') ->
      SI sv -> G st1 st')
  /\ (forall f st some st',
      call_fn cx prog orc fuel f st = XOk (some, st') -> G st st').
Proof.
  apply (exec_rel_all cx prog orc G (fun sv st1 st' => SI sv -> G st1 st')).
  - constructor; unfold G.
    + intros st HI. exact HI.
    + intros a b c Hab Hbc HI. exact (Hbc (Hab HI)).
    + intros st e s E HI. exact (H_adv _ _ _ HI E).
    + intros st m HI. exact (H_err _ _ HI).
    + intros st m s E HI. exact (H_awe _ _ _ HI E).
    + intros st mk s E HI. exact (H_open _ _ _ HI E).
    + intros st m mk s E HI. exact (H_ob _ _ _ _ HI E).
    + intros st m k mk s E HI. exact (H_close _ _ _ _ _ HI E).
    + intros st mk s E HI. exact (H_mark _ _ _ HI E).
    + intros st e HI. exact (H_ev _ _ HI).
    + intros st b HI. exact (H_sic _ _ HI).
  - exact H_pad.
  - intros st sv st0 st' Eg HA HI. destruct (H_get _ _ _ HI Eg) as (HI0 & HS). exact (HA HS HI0).
  - intros sv st1 st3 HG _ HI. exact (H_rel _ (HG HI)).
  - intros sv st1 st2 st' HG HA HS HI. exact (HA HS (H_set _ _ _ (HG HI) HS)).
Qed.

End GI.
