(* C09, first sets.  Boolean certificates for the two hypotheses of soundness (unique node ids, every
   node productive) with their reflection lemmas.  Soundness: every pass of Sema.first_regex only ever adds
   symbols that a derivation justifies; hence so does the iterated analysis.  Exactness: soundness, with
   completeness of the closure certificate (FirstSpec.complete_mut) and the fact that the computed map is
   closed (FirstClosed.calc_first_closed). *)
From Coq Require Import List Arith Bool.
From LV Require Import Sema SetLemmas FirstSpec FirstClosed.
Import ListNotations.

Section Cert.
Variable g : grammar.

Fixpoint nodup_b (l : list nat) : bool :=
  match l with [] => true | x :: r => negb (existsb (Nat.eqb x) r) && nodup_b r end.

Lemma nodup_b_spec l : nodup_b l = true -> NoDup l.
Proof.
  induction l as [|x r IH]; cbn [nodup_b]; intros H; [constructor|].
  apply andb_prop in H. destruct H as (H1 & H2). constructor; [|auto].
  rewrite <- nmem_In. unfold nmem. destruct (existsb (Nat.eqb x) r); [discriminate H1|discriminate].
Qed.

Definition wf_ids_b : bool := nodup_b (map rid_of (nodes_of g)).

Lemma wf_ids_b_spec : wf_ids_b = true -> wf_ids g.
Proof. apply nodup_b_spec. Qed.

Definition memn (x : nat) (l : list nat) : bool := existsb (Nat.eqb x) l.

Fixpoint prod_regex (P : list nat) (x : regex) : bool :=
  match x with
  | RTok _ _ => true
  | RRule _ r => match body_of g r with Some _ => memn r P | None => true end
  | RCat _ ops => forallb (prod_regex P) ops
  | RAlt _ ops | RChoice _ ops => existsb (prod_regex P) ops
  | RStar _ _ | ROpt _ _ => true
  | RPlus _ o => prod_regex P o
  | RParen _ None => true
  | RParen _ (Some o) => prod_regex P o
  | RLeaf _ _ => true
  end.

Definition prod_step (P : list nat) : list nat :=
  filter (fun r => match body_of g r with Some b => prod_regex P b | None => false end)
         (seq 0 (length (g_rules g))).

Fixpoint prod_iter (n : nat) (P : list nat) : list nat :=
  match n with 0 => P | S n => prod_iter n (prod_step P) end.

Definition prod_rules : list nat := prod_iter (length (g_rules g)) [].

Definition productive_b : bool := forallb (prod_regex prod_rules) (nodes_of g).

Definition Pinv (P : list nat) : Prop :=
  forall r, memn r P = true -> exists b w, body_of g r = Some b /\ derives g b w.

Lemma derives_list_all ops :
  Forall (fun x => exists w, derives g x w) ops -> exists w, derives_list g ops w.
Proof.
  induction 1 as [|x r (w1 & H1) _ (w2 & H2)]; [exists []; constructor|].
  exists (w1 ++ w2). constructor; assumption.
Qed.

Lemma prod_regex_sound P : Pinv P -> forall x, prod_regex P x = true -> exists w, derives g x w.
Proof.
  intros HP.
  induction x as [i t|i r|i ops IH|i ops IH|i ops IH|i o IH|i o IH|i o IH|i|i o IH|i k] using regex_ind';
    cbn [prod_regex]; intros H; try (exists []; repeat constructor; fail).
  - exists [t]. constructor.
  - destruct (body_of g r) as [b|] eqn:Eb.
    + destruct (HP r H) as (b' & w & Hb & Hd). rewrite Eb in Hb. injection Hb as <-.
      exists w. econstructor; eassumption.
    + exists []. apply D_rule_empty. assumption.
  - rewrite forallb_forall in H. rewrite Forall_forall in IH.
    destruct (derives_list_all ops) as (w & Hw).
    { apply Forall_forall. intros o Ho. apply IH; auto. }
    exists w. constructor. assumption.
  - apply existsb_exists in H. destruct H as (o & Ho & H). rewrite Forall_forall in IH.
    destruct (IH o Ho H) as (w & Hw). exists w. econstructor; eassumption.
  - apply existsb_exists in H. destruct H as (o & Ho & H). rewrite Forall_forall in IH.
    destruct (IH o Ho H) as (w & Hw). exists w. econstructor; eassumption.
  - destruct (IH H) as (w & Hw). exists (w ++ []). constructor; [assumption|constructor].
  - destruct (IH H) as (w & Hw). exists w. constructor. assumption.
Qed.

Lemma prod_step_inv P : Pinv P -> Pinv (prod_step P).
Proof.
  intros HP r Hr. apply nmem_In, filter_In in Hr. (* memn is Sema.nmem *) destruct Hr as (_ & Hb). destruct (body_of g r) as [b|] eqn:Eb; [|discriminate].
  destruct (prod_regex_sound P HP b Hb) as (w & Hw). exists b, w. auto.
Qed.

Lemma prod_iter_inv n : forall P, Pinv P -> Pinv (prod_iter n P).
Proof. induction n as [|n IH]; intros P HP; cbn [prod_iter]; [assumption|]. apply IH, prod_step_inv, HP. Qed.

Lemma productive_b_spec : productive_b = true -> productive g.
Proof.
  unfold productive_b, productive. intros H x Hx. rewrite forallb_forall in H.
  apply (prod_regex_sound prod_rules); [|auto].
  apply prod_iter_inv. intros r Hr. discriminate.
Qed.

End Cert.

Section Sound.
Variable g : grammar.
Hypothesis Hwf : wf_ids g.
Hypothesis Hprod : productive g.

Definition derives_hd (x : regex) (s : sym) : Prop := exists w, derives g x w /\ hd_sym w = s.
Definition Just_first : smap -> Prop := Just g derives_hd.

Lemma derives_hd_up x y : (forall w, derives g y w -> derives g x w) -> forall s, derives_hd y s -> derives_hd x s.
Proof. intros H s (w & Hw & Hs). exists w. auto. Qed.

Lemma form_derives x :
  match form_of g x with
  | FSym a => derives_hd x a
  | FRef o => forall w, derives g o w -> derives g x w
  | FOpt o => derives_hd x Eps /\ forall w, derives g o w -> derives g x w
  | FAlt ops => forall o w, In o ops -> derives g o w -> derives g x w
  | FCat ops => forall w, derives_list g ops w -> derives g x w
  end.
Proof.
  destruct x as [i t|i r|i ops|i ops|i ops|i o|i o|i o|i [o|]|i k]; cbn [form_of].
  - exists [t]. split; constructor.
  - destruct (body_of g r) as [b|] eqn:E.
    + intros w. apply D_rule, E.
    + exists []. split; [apply D_rule_empty, E|reflexivity].
  - intros w. apply D_cat.
  - intros o w. apply D_alt.
  - intros o w. apply D_choice.
  - split; [exists []; split; repeat constructor|].
    intros w Hw. constructor. rewrite <- (app_nil_r w). constructor; [assumption|constructor].
  - intros o' w [<-|[]] Hw. rewrite <- (app_nil_r w). constructor; [assumption|constructor].
  - split; [exists []; split; constructor|]. intros w. apply D_opt1.
  - intros o' w [<-|[]]. apply D_paren1.
  - exists []. split; constructor.
  - exists []. split; constructor.
Qed.

Definition first_visit_Just (o : regex) : Prop := In o (nodes_of g) /\ forall m, Just_first m -> Just_first (first_regex g o m).

Lemma alt_go_Just x :
  In x (nodes_of g) -> forall l, (forall o w, In o l -> derives g o w -> derives g x w) ->
  Forall first_visit_Just l -> forall m, Just_first m -> Just_first (alt_go g (rid_of x) l m).
Proof.
  intros Hx. induction l as [|o r IH]; intros Hup Hok m HJ; cbn [alt_go]; [assumption|].
  apply Forall_cons_iff in Hok. destruct Hok as ((Hn & Ho) & Hr). specialize (Ho m HJ).
  apply IH; [intros o' w Ho'; apply Hup; right; exact Ho'|exact Hr|]. apply Just_union; try assumption.
  intros s Hs. exact (derives_hd_up x o (fun w => Hup o w (or_introl eq_refl)) s (Ho o Hn s Hs)).
Qed.

(* what the concatenation loop hands back was in [acc] already or, if [use_next], is the head of a word of
   the operands still to come; an operand's head is one of these only if the later operands derive some
   word: the one use of productivity *)
Lemma cat_go_Just : forall l m un acc m' un' acc',
  cat_go g l m un acc = (m', un', acc') -> Forall first_visit_Just l -> Just_first m ->
  Just_first m'
  /\ forall s, mem s (if un' then add Eps acc' else acc') = true ->
       mem s acc = true \/ (un = true /\ exists w, derives_list g l w /\ hd_sym w = s).
Proof.
  induction l as [|o r IH]; intros m un acc m' un' acc' H Hok HJ; cbn [cat_go] in H.
  - injection H as <- <- <-. split; [assumption|]. intros s Hs. destruct un; [|left; exact Hs].
    apply mem_add in Hs. destruct Hs as [->|Hs]; [right|left; exact Hs].
    split; [reflexivity|]. exists []. split; constructor.
  - apply Forall_cons_iff in Hok. destruct Hok as ((Hn & Ho) & Hr). specialize (Ho m HJ).
    destruct un.
    + destruct (IH _ _ _ _ _ _ H Hr Ho) as (HJ' & Hs'). split; [exact HJ'|]. intros s Hs.
      destruct (Hs' s Hs) as [Hs1|(He & w & Hw & <-)].
      * apply mem_remove in Hs1. destruct Hs1 as (Hne & Hs1). apply mem_union in Hs1.
        destruct Hs1 as [Hs1|Hs1]; [left; exact Hs1|right]. split; [reflexivity|].
        destruct (Ho o Hn s Hs1) as ([|a w1] & Hw1 & <-); [contradiction Hne; reflexivity|].
        destruct (derives_list_all g r (Forall_impl _ (fun y Hy => Hprod y (proj1 Hy)) Hr)) as (w2 & Hw2).
        exists ((a :: w1) ++ w2). split; [constructor; assumption|reflexivity].
      * right. split; [reflexivity|]. destruct (Ho o Hn Eps He) as ([|a w1] & Hw1 & [=]).
        exists ([] ++ w). split; [constructor; assumption|reflexivity].
    + destruct (IH _ _ _ _ _ _ H Hr Ho) as (HJ' & Hs'). split; [exact HJ'|]. intros s Hs.
      destruct (Hs' s Hs) as [Hs1|([=] & _)]. left. exact Hs1.
Qed.

Theorem first_regex_Just : forall x m, In x (nodes_of g) -> Just_first m -> Just_first (first_regex g x m).
Proof.
  induction x as [x IH] using kids_ind. intros m Hx HJ.
  assert (Hok : Forall first_visit_Just (kids x)).
  { rewrite Forall_forall in *. intros o Ho. pose proof (kid_node g _ _ Hx Ho) as Hn.
    split; [exact Hn|]. intros m'. apply IH; assumption. }
  pose proof (form_derives x) as Hd. pose proof (form_ref g x) as Hb.
  rewrite (form_kids g) in Hok. rewrite first_regex_eq.
  destruct (form_of g x) as [a|b|o|ops|ops].
  - apply Just_add; assumption.
  - apply Just_union; try assumption. intros s Hs. exact (derives_hd_up _ _ Hd s (HJ b (Hb b eq_refl) s Hs)).
  - destruct (Forall_inv Hok) as (Hn & Ho). specialize (Ho _ (Just_touch g derives_hd m (rid_of x) HJ)).
    cbv zeta. apply Just_upd; try assumption. intros s Hs. apply mem_add in Hs. destruct Hs as [->|Hs].
    + right. apply Hd.
    + apply mem_union in Hs. destruct Hs as [Hs|Hs]; [left; exact Hs|right].
      exact (derives_hd_up _ _ (proj2 Hd) s (Ho o Hn s Hs)).
  - apply (alt_go_Just x); try assumption. apply Just_touch, HJ.
  - destruct (cat_go g ops _ true []) as [[m1 un] acc] eqn:Eg.
    destruct (cat_go_Just ops _ _ _ _ _ _ Eg Hok (Just_touch g derives_hd m (rid_of x) HJ)) as (HJ1 & C).
    apply Just_union; try assumption. intros s Hs.
    destruct (C s Hs) as [[=]|(_ & w & Hw & <-)]. exists w. split; [apply Hd, Hw|reflexivity].
Qed.

Lemma first_pass_Just m : Just_first m -> Just_first (first_pass g m).
Proof.
  apply fold_left_inv. intros m' ru Hru HJ. destruct (r_body ru) as [b|] eqn:Eb; [|assumption].
  apply first_regex_Just; [|assumption].
  apply in_flat_map. exists ru. split; [assumption|]. rewrite Eb. apply subs_self.
Qed.

Lemma calc_first_Just fuel m : calc_first g fuel = Some m -> Just_first m.
Proof.
  intros H. destruct (iterate_inv Just_first _ first_pass_Just _ _ _ (Just_empty g derives_hd) H) as (m0 & HJ & -> & _).
  apply first_pass_Just, HJ.
Qed.

Theorem first_sound fuel m x :
  calc_first g fuel = Some m -> In x (nodes_of g) ->
  (forall a, mem (T a) (get m (rid_of x)) = true -> First_spec g x a)
  /\ (mem Eps (get m (rid_of x)) = true -> Nullable_spec g x).
Proof.
  intros H Hx. pose proof (calc_first_Just _ _ H x Hx) as HJ. split.
  - intros a Ha. destruct (HJ _ Ha) as ([|b w] & Hw & [= <-]). exists w. exact Hw.
  - intros He. destruct (HJ _ He) as ([|b w] & Hw & [=]). exact Hw.
Qed.

End Sound.

Section Exact.
Variable g : grammar.

(* the first set of a node holds exactly the heads of the words the node derives; the closure
   certificate that completeness asks for is itself a theorem (FirstClosed.calc_first_closed) *)
Theorem first_exact_word fuel m :
  wf_ids_b g = true -> productive_b g = true ->
  calc_first g fuel = Some m ->
  forall x, In x (nodes_of g) ->
  forall s, mem s (get m (rid_of x)) = true <-> exists w, derives g x w /\ hd_sym w = s.
Proof.
  intros Hw Hp Hc x Hx s. split.
  - apply (calc_first_Just g (wf_ids_b_spec g Hw) (productive_b_spec g Hp) fuel m Hc x Hx).
  - intros (w & Hd & <-). exact (proj1 (complete_mut g m (calc_first_closed g fuel m Hc)) x w Hd Hx).
Qed.

Theorem first_exact_any fuel m :
  wf_ids_b g = true -> productive_b g = true ->
  calc_first g fuel = Some m ->
  forall x, In x (nodes_of g) ->
    (forall a, mem (T a) (get m (rid_of x)) = true <-> First_spec g x a)
    /\ (mem Eps (get m (rid_of x)) = true <-> Nullable_spec g x).
Proof.
  intros Hw Hp Hc x Hx. pose proof (first_exact_word fuel m Hw Hp Hc x Hx) as E.
  split; [intros a|]; split; intros H.
  - apply E in H. destruct H as ([|b w] & Hd & [= <-]). exists w. exact Hd.
  - destruct H as (w & Hd). apply E. exists (a :: w). auto.
  - apply E in H. destruct H as ([|b w] & Hd & [=]). exact Hd.
  - apply E. exists []. auto.
Qed.

End Exact.
