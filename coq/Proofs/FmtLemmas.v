(* Measures on item lists (strs, chars, cnt and its counters), the invariant `Inv` that every function of
   the item generator keeps, and `Inv` for push_text / space_before_comment, the leaves of the generator. *)
From Coq Require Import List Arith Bool Lia.
From LV Require Import Fmt.
Import ListNotations.

(* the bytes of the string items outside condition branches, in order *)
Fixpoint strs (l : list item) : list byte :=
  match l with
  | [] => []
  | IStr s :: r => s ++ strs r
  | _ :: r => strs r
  end.

Definition chars (l : list item) : list byte := nonws (strs l).

Definition not_crash (i : item) : Prop := match i with ICrash _ => False | _ => True end.
Definition NoCrash (l : list item) : Prop := Forall not_crash l.

Definition is_sig (i : item) : Prop := match i with ISig _ => True | _ => False end.

Definition bytes_ok (s : list byte) : Prop := ~ In b_tab s /\ ~ In b_nl s.

(* the four condition shapes format.rs builds; branches hold signals only *)
Definition cond_shape (n : cname) (t f : list item) : Prop :=
  match n with
  | CNewLineIfMultipleLines _ => t = [ISig NewLine] /\ f = []
  | CNlOrSpace => t = [ISig NewLine] /\ f = [ISig SpaceOrNewLine]
  | CMultilineAlt _ =>
      (t = [ISig NewLine; ISig FinishIndent; ISig FinishIndent] /\ f = [ISig SpaceOrNewLine])
      \/ (t = [ISig StartIndent; ISig StartIndent] /\ f = [])
  end.

(* what the printer requires of every item *)
Definition item_ok (i : item) : Prop :=
  match i with
  | IStr s => bytes_ok s
  | ICond n t f => cond_shape n t f
  | _ => True
  end.

Definition cnt (f : item -> nat) (l : list item) : nat := fold_right (fun i a => f i + a) 0 l.

Definition is_si (i : item) := match i with ISig StartIndent => 1 | _ => 0 end.
Definition is_fi (i : item) := match i with ISig FinishIndent => 1 | _ => 0 end.
Definition is_sg (i : item) := match i with ISig StartNewLineGroup => 1 | _ => 0 end.
Definition is_fg (i : item) := match i with ISig FinishNewLineGroup => 1 | _ => 0 end.
(* the first ("separator", has a false path) and second ("indent", no false path) multilineAlt condition *)
Definition is_altA (i : item) :=
  match i with ICond (CMultilineAlt _) _ (_ :: _) => 1 | _ => 0 end.
Definition is_altB (i : item) :=
  match i with ICond (CMultilineAlt _) _ [] => 1 | _ => 0 end.

Lemma strs_app : forall a b, strs (a ++ b) = strs a ++ strs b.
Proof.
  induction a as [|x a IH]; intros b; simpl; [reflexivity|].
  destruct x; simpl; rewrite ?IH, ?app_assoc; reflexivity.
Qed.

Lemma nonws_app : forall a b, nonws (a ++ b) = nonws a ++ nonws b.
Proof. intros; apply filter_app. Qed.

Lemma chars_app : forall a b, chars (a ++ b) = chars a ++ chars b.
Proof. intros; unfold chars; rewrite strs_app, nonws_app; reflexivity. Qed.

Lemma chars_cons_nostr : forall x l, (forall s, x <> IStr s) -> chars (x :: l) = chars l.
Proof. intros x l H; destruct x; try reflexivity. exfalso; eapply H; reflexivity. Qed.

Lemma cnt_app : forall f a b, cnt f (a ++ b) = cnt f a + cnt f b.
Proof. induction a as [|x a IH]; intros b; simpl; [reflexivity|]. rewrite IH; lia. Qed.

Lemma cnt_cons : forall f x l, cnt f (x :: l) = f x + cnt f l.
Proof. reflexivity. Qed.

Lemma cnt_repeat : forall f x n, cnt f (repeat x n) = n * f x.
Proof. induction n as [|n IH]; simpl; [reflexivity|]. rewrite IH; lia. Qed.

Lemma chars_repeat_sig : forall s n, chars (repeat (ISig s) n) = [].
Proof. induction n as [|n IH]; [reflexivity|exact IH]. Qed.

Lemma first_crash_none : forall l, first_crash l = None -> NoCrash l.
Proof.
  induction l as [|x l IH]; intros H; constructor; destruct x; try discriminate H; exact I || exact (IH H).
Qed.

(* Inv n b bad out: `out` closes n more indentation levels than it opens and, unless it holds a crash
   marker, its strings spell b, whitespace aside, and bad = false.
   In use b and bad are the content and the unreachable-kind flag of the subtrees `out` is generated
   from; glue between the subtrees has b = [] and bad = false. *)
Record Inv (n : nat) (b : list byte) (bad : bool) (out : list item) : Prop := {
  inv_ok : Forall item_ok out;
  inv_indent : cnt is_si out + n = cnt is_fi out;
  inv_alt : cnt is_altA out = cnt is_altB out;
  inv_group : cnt is_sg out = cnt is_fg out;
  inv_text : NoCrash out -> chars out = b /\ bad = false
}.
Arguments inv_ok {n b bad out}.
Arguments inv_indent {n b bad out}.
Arguments inv_alt {n b bad out}.
Arguments inv_group {n b bad out}.
Arguments inv_text {n b bad out}.

Definition Glue : list item -> Prop := Inv 0 [] false.

Lemma Glue_nil : Glue [].
Proof. repeat split; constructor. Qed.

Lemma Inv_app : forall n1 b1 x1 o1 n2 b2 x2 o2,
  Inv n1 b1 x1 o1 -> Inv n2 b2 x2 o2 -> Inv (n1 + n2) (b1 ++ b2) (x1 || x2) (o1 ++ o2).
Proof.
  intros n1 b1 x1 o1 n2 b2 x2 o2 [A1 A2 A3 A4 A5] [B1 B2 B3 B4 B5]. split.
  - apply Forall_app; split; assumption.
  - rewrite !cnt_app, <- A2, <- B2. apply Nat.add_shuffle1.
  - rewrite !cnt_app, A3, B3. reflexivity.
  - rewrite !cnt_app, A4, B4. reflexivity.
  - intros NC. apply Forall_app in NC as [Ha Hb]. rewrite chars_app.
    destruct (A5 Ha) as [-> ->], (B5 Hb) as [-> ->]. split; reflexivity.
Qed.

Lemma cnt_wrap : forall f (pre r post : list item), cnt f (pre ++ r ++ post) = cnt f (pre ++ post) + cnt f r.
Proof. intros. rewrite !cnt_app. lia. Qed.

(* pre and post are judged together: the two signals of a group, or the two conditions of an
   alternation separator, are balanced only as a pair *)
Lemma Inv_wrap : forall pre post m n b x r,
  Inv m [] false (pre ++ post) -> Inv n b x r -> Inv (m + n) b x (pre ++ r ++ post).
Proof.
  intros pre post m n b x r [A1 A2 A3 A4 A5] [B1 B2 B3 B4 B5].
  apply Forall_app in A1 as [Ap Aq]. split.
  - repeat (apply Forall_app; split); assumption.
  - rewrite !cnt_wrap, <- A2, <- B2. apply Nat.add_shuffle1.
  - rewrite !cnt_wrap, A3, B3. reflexivity.
  - rewrite !cnt_wrap, A4, B4. reflexivity.
  - intros NC. apply Forall_app in NC as [Np NC]. apply Forall_app in NC as [Nr Nq].
    destruct A5 as [E _]; [apply Forall_app; split; assumption|]. rewrite chars_app in E.
    apply app_eq_nil in E as [E1 E2]. rewrite !chars_app, E1, E2, app_nil_r. exact (B5 Nr).
Qed.

Lemma Inv_glue_l : forall g n b x o, Glue g -> Inv n b x o -> Inv n b x (g ++ o).
Proof. intros g n b x o Hg Ho. exact (Inv_app _ _ _ _ _ _ _ _ Hg Ho). Qed.

Lemma Inv_glue_r : forall g n b x o, Inv n b x o -> Glue g -> Inv n b x (o ++ g).
Proof. intros g n b x o Ho Hg. exact (Inv_wrap [] g _ _ _ _ _ Hg Ho). Qed.

(* a panic excuses the content *)
Lemma Inv_crash : forall c b x, Inv 0 b x [ICrash c].
Proof.
  intros c b x. split; try reflexivity; [repeat constructor|].
  intros H. inversion H as [|? ? F]. destruct F.
Qed.

Lemma Inv_one : forall i b, item_ok i -> is_si i = is_fi i -> is_altA i = is_altB i -> is_sg i = is_fg i ->
  chars [i] = b -> Inv 0 b false [i].
Proof.
  intros i b H1 H2 H3 H4 <-. split; simpl; try lia; [repeat constructor; exact H1|].
  split; reflexivity.
Qed.

Lemma Inv_str : forall s, bytes_ok s -> Inv 0 (nonws s) false [IStr s].
Proof. intros s H. apply Inv_one; try reflexivity; [exact H|]. unfold chars; simpl. rewrite app_nil_r; reflexivity. Qed.

Definition neutral_sig (s : signal) : bool :=
  match s with
  | StartIndent | FinishIndent | StartNewLineGroup | FinishNewLineGroup => false
  | _ => true
  end.

Lemma Glue_sig : forall s, neutral_sig s = true -> Glue [ISig s].
Proof. intros s H. destruct s; try discriminate H; apply Inv_one; reflexivity || exact I. Qed.

Lemma Glue_c_newline : forall b, Glue [c_newline b].
Proof. intros; apply Inv_one; try reflexivity. split; reflexivity. Qed.

Lemma Glue_c_nl_or_space : Glue [c_nl_or_space].
Proof. apply Inv_one; try reflexivity. split; reflexivity. Qed.

Lemma Glue_space : Glue space.
Proof. apply (Inv_str [b_sp]). split; intros [H|[]]; discriminate H. Qed.

Lemma Glue_repeat : forall i n, Glue [i] -> Glue (repeat i n).
Proof. intros i n H. induction n as [|n IH]; [apply Glue_nil|exact (Inv_glue_l [i] _ _ _ _ H IH)]. Qed.

Lemma item_ok_repeat_sig : forall s w, Forall item_ok (repeat (ISig s) w).
Proof. intros s w. apply Forall_forall. intros i Hi. apply repeat_spec in Hi. subst i. exact I. Qed.

Lemma Inv_dedent : forall w, Inv w [] false (dedent w).
Proof.
  intros w. unfold dedent. split; rewrite ?cnt_repeat; simpl; try lia.
  - apply item_ok_repeat_sig.
  - intros _. split; [apply chars_repeat_sig|reflexivity].
Qed.

Lemma Inv_indent : forall w n b x o, Inv (w + n) b x o -> Inv n b x (indent w ++ o).
Proof.
  intros w n b x o [A1 A2 A3 A4 A5]. unfold indent. split.
  - apply Forall_app; split; [apply item_ok_repeat_sig|exact A1].
  - rewrite !cnt_app, !cnt_repeat, <- A2. simpl. lia.
  - rewrite !cnt_app, !cnt_repeat, A3. reflexivity.
  - rewrite !cnt_app, !cnt_repeat, A4. reflexivity.
  - intros NC. apply Forall_app in NC. rewrite chars_app, chars_repeat_sig. exact (A5 (proj2 NC)).
Qed.

Lemma Inv_alt_pair : forall force n b x r,
  Inv n b x r -> Inv n b x (c_alt_sep force :: r ++ c_alt_indent force :: space).
Proof.
  intros force n b x r. apply (Inv_wrap [c_alt_sep force] (c_alt_indent force :: space) 0).
  apply (Inv_glue_r space 0 [] false [c_alt_sep force; c_alt_indent force]); [|exact Glue_space].
  repeat split. constructor; [left|constructor; [right|constructor]]; split; reflexivity.
Qed.

Lemma split_on_nonempty : forall sep l, split_on sep l <> [].
Proof.
  induction l as [|b l IH]; simpl; [discriminate|].
  destruct (b =? sep); [discriminate|].
  destruct (split_on sep l); [congruence|discriminate].
Qed.

Lemma split_on_In : forall sep l p, In p (split_on sep l) -> forall c, In c p -> c <> sep /\ In c l.
Proof.
  induction l as [|b l IH]; simpl; intros p H c Hc.
  - destruct H as [<-|[]]. destruct Hc.
  - destruct (b =? sep) eqn:E.
    + destruct H as [<-|H]; [destruct Hc|]. destruct (IH p H c Hc); auto.
    + apply Nat.eqb_neq in E. pose proof (split_on_nonempty sep l) as Hne.
      destruct (split_on sep l) as [|q qs]; [congruence|].
      destruct H as [<-|H].
      * destruct Hc as [<-|Hc]; [auto|]. destruct (IH q (or_introl eq_refl) c Hc); auto.
      * destruct (IH p (or_intror H) c Hc); auto.
Qed.

Lemma split_on_nonws : forall sep l, is_ws sep = true -> flat_map nonws (split_on sep l) = nonws l.
Proof.
  intros sep l Hs. induction l as [|b l IH]; simpl; [reflexivity|].
  destruct (b =? sep) eqn:E.
  - apply Nat.eqb_eq in E; subst b. unfold nonws at 3; simpl. rewrite Hs. exact IH.
  - pose proof (split_on_nonempty sep l) as Hne.
    destruct (split_on sep l) as [|q qs]; [congruence|].
    unfold nonws in *; simpl in *. rewrite <- IH. destruct (is_ws b); reflexivity.
Qed.

Lemma has_byte_false : forall c l, has_byte c l = false -> ~ In c l.
Proof.
  intros c l H Hin. unfold has_byte in H.
  assert (existsb (fun b => b =? c) l = true); [|congruence].
  apply existsb_exists. exists c; split; [exact Hin|apply Nat.eqb_refl].
Qed.

Lemma Inv_str_if_nonempty : forall p, bytes_ok p -> Inv 0 (nonws p) false (str_if_nonempty p).
Proof. intros [|c p] H; [apply Glue_nil|apply Inv_str, H]. Qed.

(* the shape of gen_line and of gen_string_lines: pieces with a signal between them *)
Lemma Inv_sep_map : forall sep f (P : list byte -> Prop), neutral_sig sep = true ->
  (forall p, P p -> Inv 0 (nonws p) false (f p)) ->
  forall ps, Forall P ps ->
  Inv 0 (flat_map nonws ps) false
    match ps with [] => [] | p :: r => f p ++ flat_map (fun q => ISig sep :: f q) r end.
Proof.
  intros sep f P Hs Hf ps H. destruct H as [|p r Hp Hr]; [apply Glue_nil|].
  apply (Inv_app 0 _ false _ 0 _ false); [apply Hf, Hp|].
  induction Hr as [|q r Hq _ IH]; [apply Glue_nil|].
  apply (Inv_glue_l [ISig sep]); [apply Glue_sig, Hs|].
  apply (Inv_app 0 _ false _ 0 _ false); [apply Hf, Hq|exact IH].
Qed.

Lemma Inv_gen_line : forall l, ~ In b_nl l -> Inv 0 (nonws l) false (gen_line l).
Proof.
  intros l Hnl. rewrite <- (split_on_nonws b_tab l eq_refl).
  apply (Inv_sep_map Tab str_if_nonempty bytes_ok eq_refl Inv_str_if_nonempty).
  apply Forall_forall. intros p Hp.
  split; intros Hc; destruct (split_on_In _ _ _ Hp _ Hc) as [H1 H2]; [apply H1; reflexivity|exact (Hnl H2)].
Qed.

Lemma strip_cr_spec : forall l, strip_cr l = l \/ l = strip_cr l ++ [b_cr].
Proof.
  intros l. unfold strip_cr. destruct (rev l) as [|c r] eqn:E; [left; reflexivity|].
  destruct (c =? b_cr) eqn:Ec; [right|left; reflexivity].
  apply Nat.eqb_eq in Ec; subst c. rewrite <- (rev_involutive l), E. reflexivity.
Qed.

Lemma strip_cr_nonws : forall l, nonws (strip_cr l) = nonws l.
Proof.
  intros l. destruct (strip_cr_spec l) as [->|E]; [reflexivity|].
  rewrite E at 2. rewrite nonws_app. simpl. rewrite app_nil_r; reflexivity.
Qed.

Lemma strip_cr_incl : forall c l, In c (strip_cr l) -> In c l.
Proof.
  intros c l H. destruct (strip_cr_spec l) as [E|E]; [rewrite <- E; exact H|].
  rewrite E. apply in_or_app; left; exact H.
Qed.

Lemma lines_of_cons2 : forall p q qs, lines_of (p :: q :: qs) = strip_cr p :: lines_of (q :: qs).
Proof. reflexivity. Qed.

Lemma lines_of_nonws : forall ps, flat_map nonws (lines_of ps) = flat_map nonws ps.
Proof.
  induction ps as [|p [|q qs] IH]; [reflexivity|destruct p; reflexivity|].
  rewrite lines_of_cons2. cbn [flat_map]. rewrite IH, strip_cr_nonws. reflexivity.
Qed.

Lemma lines_of_Forall : forall (P : list byte -> Prop) ps,
  (forall p, P p -> P (strip_cr p)) -> Forall P ps -> Forall P (lines_of ps).
Proof.
  intros P ps HP H. induction H as [|p [|q qs] Hp _ IH]; [constructor| |].
  - simpl. destruct (is_nil p); repeat constructor; exact Hp.
  - rewrite lines_of_cons2. constructor; [apply HP, Hp|exact IH].
Qed.

Lemma lines_nonws : forall l, flat_map nonws (lines l) = nonws l.
Proof. intros; unfold lines. rewrite lines_of_nonws. apply split_on_nonws; reflexivity. Qed.

Lemma lines_no_nl : forall l, Forall (fun p => ~ In b_nl p) (lines l).
Proof.
  intros l. apply lines_of_Forall; [intros p Hp Hc; exact (Hp (strip_cr_incl _ _ Hc))|].
  apply Forall_forall. intros p Hp Hc. destruct (split_on_In _ _ _ Hp _ Hc) as [H _]. apply H; reflexivity.
Qed.

Lemma Inv_gen_string_lines : forall l, Inv 0 (nonws l) false (gen_string_lines l).
Proof.
  intros l. rewrite <- (lines_nonws l). apply Inv_glue_r.
  - exact (Inv_sep_map NewLine gen_line _ eq_refl Inv_gen_line _ (lines_no_nl l)).
  - destruct (ends_with_nl l); [apply Glue_sig; reflexivity|apply Glue_nil].
Qed.

Lemma Inv_push_text : forall txt, Inv 0 (nonws txt) false (push_text txt).
Proof.
  intros txt. unfold push_text, gen_from_raw_string. destruct (has_byte b_nl txt) eqn:En.
  - rewrite orb_true_r. apply (Inv_glue_l [ISig StartIgnoringIndent]); [apply Glue_sig; reflexivity|].
    apply Inv_glue_r; [apply Inv_gen_string_lines|apply Glue_sig; reflexivity].
  - apply has_byte_false in En. rewrite orb_false_r. destruct (has_byte b_tab txt) eqn:Et.
    + apply Inv_gen_line, En.
    + apply Inv_str. split; [apply has_byte_false, Et|exact En].
Qed.

Lemma Inv_push_text_chopped : forall txt, Inv 0 (nonws (removelast txt)) false (push_text_chopped txt).
Proof. destruct txt; [apply Inv_crash|apply Inv_push_text]. Qed.

Lemma sbc_scan_cases : forall l g,
  sbc_scan l g = [] \/ sbc_scan l g = [ISig NewLine] \/ sbc_scan l g = space.
Proof.
  induction l as [|c r IH]; intros g; simpl; [left; reflexivity|].
  destruct (is_blank c); [apply IH|].
  destruct (c =? b_nl); [destruct g; auto|auto].
Qed.

Lemma Glue_sbc : forall src start g, Glue (space_before_comment src start g).
Proof.
  intros src start g. unfold space_before_comment.
  destruct (start <=? length src); [|apply Inv_crash].
  destruct (sbc_scan_cases (rev_append (firstn start src) []) g) as [-> | [-> | ->]].
  - apply Glue_nil.
  - apply Glue_sig; reflexivity.
  - apply Glue_space.
Qed.

(* a stricter notion than item_ok, not used by Inv *)
Definition plain (i : item) : Prop :=
  match i with IStr s => bytes_ok s | ISig s => s <> StartIndent /\ s <> FinishIndent /\ s <> StartNewLineGroup /\ s <> FinishNewLineGroup | _ => False end.

Lemma sig_plain : forall s, s <> StartIndent -> s <> FinishIndent -> s <> StartNewLineGroup -> s <> FinishNewLineGroup -> plain (ISig s).
Proof. simpl; tauto. Qed.

Lemma plain_no_crash : forall l, Forall plain l -> NoCrash l.
Proof. intros l H; eapply Forall_impl; [|exact H]. intros a; destruct a; simpl; tauto. Qed.

Lemma plain_cnt0 : forall f l, (forall i, plain i -> f i = 0) -> Forall plain l -> cnt f l = 0.
Proof.
  intros f l Hf H; induction H as [|x l Hx _ IH]; simpl; [reflexivity|]. rewrite (Hf x Hx), IH; reflexivity.
Qed.

Definition plainc (i : item) : Prop := plain i \/ i = ICrash CSlice.

Definition not_unreach (i : item) : Prop := i <> ICrash CUnreachable.

Lemma plainc_not_unreach : forall l, Forall plainc l -> Forall not_unreach l.
Proof.
  intros l H; eapply Forall_impl; [|exact H]. intros a [Ha| ->] E; [subst a; exact Ha|discriminate].
Qed.
