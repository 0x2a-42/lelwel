(* The induction over the interpreter, done once.  A relation on parser states that is a
   preorder and is kept by every operation of the runtime is kept by every statement of every
   program, for all inputs, oracles and fuel.  The ordered choice is the only statement whose
   effect is not a composition of such steps: between `get_state` and the final `release` the
   state may be restored any number of times, so the alternatives carry a relation [A] of their
   own, closed under three rules (leave, restore and retry, enter).  A filter [ok] on statements
   restricts the claim to a fragment of the language; assertions and ordered choices need their
   rules only where the filter admits them.  The claims are predicates of the interpreter's result
   ([after]), so a case of the induction ends at the runtime call it reaches.  Before the
   induction the operations of the runtime are taken apart into the steps they are made of, so
   that a relation has to be checked on the steps only ([kept_of_steps]). *)
From Coq Require Import List Bool Arith Lia.
From LV Require Import Cst Tree ABuild Runtime Exec ListLemmas FuelMono.
Import ListNotations.

(* The wrappers open, open_before, close are close_error_node followed by one
   builder operation on the tree; mark is close_error_node alone. *)
Definition tree_op (o : bop) : Prop := match o with BOpen | BOpenBefore _ | BClose _ _ => True | _ => False end.

Inductive tree_step (s : pstate) : pstate -> Prop :=
| tree_step_intro o c' :
    tree_op o -> c_step (cstd s) (snaps s) o = Ok (c', snaps s) -> tree_step s (set_cst s c' (gstep s o)).

Lemma p_open_inv st mk s' :
  p_open st = Ok (mk, s') -> exists s, p_close_error_node st = Ok s /\ tree_step s s'.
Proof.
  unfold p_open. destruct (p_close_error_node st) as [s|]; [|discriminate].
  destruct (c_open (cstd s)) as [mk' c'] eqn:E. intros [= _ <-]. exists s. split; [reflexivity|].
  apply (tree_step_intro s BOpen); [exact I|]. cbn [c_step]. rewrite E. reflexivity.
Qed.

Lemma p_open_before_inv st m mk s' :
  p_open_before st m = Ok (mk, s') -> exists s, p_close_error_node st = Ok s /\ tree_step s s'.
Proof.
  unfold p_open_before. destruct (p_close_error_node st) as [s|]; [|discriminate].
  destruct (c_open_before (cstd s) m) as [c'|] eqn:E; [|discriminate]. intros [= _ <-].
  exists s. split; [reflexivity|].
  apply (tree_step_intro s (BOpenBefore m)); [exact I|]. cbn [c_step]. rewrite E. reflexivity.
Qed.

Lemma p_close_inv st m k mk s' :
  p_close st m k = Ok (mk, s') -> exists s, p_close_error_node st = Ok s /\ tree_step s s'.
Proof.
  unfold p_close. destruct (p_close_error_node st) as [s|]; [|discriminate].
  destruct (c_close (cstd s) m k) as [c'|] eqn:E; [|discriminate]. intros [= _ <-].
  exists s. split; [reflexivity|].
  apply (tree_step_intro s (BClose m k)); [exact I|]. cbn [c_step]. rewrite E. reflexivity.
Qed.

Lemma p_mark_inv st mk s' : p_mark st = Ok (mk, s') -> p_close_error_node st = Ok s'.
Proof. unfold p_mark. destruct (p_close_error_node st); [|discriminate]. intros [= _ <-]. reflexivity. Qed.

Lemma p_close_error_node_fields st s :
  p_close_error_node st = Ok s ->
  pos s = pos st /\ cur s = cur st /\ diags s = diags st /\ esa s = esa st /\ err_node s = None.
Proof.
  unfold p_close_error_node. destruct (err_node st) eqn:En; [|intros [= <-]; auto].
  destruct (c_close (cstd st) n kError); [|discriminate]. intros [= <-]. cbn. auto.
Qed.

(* the pending error node that advance_with_error opens when there is none *)
Definition open_error_node (s : pstate) : pstate :=
  match err_node s with
  | Some _ => s
  | None =>
    let (mk, c') := c_open (cstd s) in
    mkSt c' (pos s) (cur s) (Some mk) (in_choice s) (esa s) (diags s) (log s) (gstep s BOpen) (snaps s)
  end.

Lemma active_error_p_error st d : active_error (p_error st d) = true.
Proof.
  unfold p_error. destruct (active_error st) eqn:E; [exact E|].
  unfold active_error. cbn. destruct (err_node st); reflexivity.
Qed.

Lemma p_advance_with_error_eq cx st m :
  p_advance_with_error cx st m =
  let s1 := p_error st (mk_diag cx st m) in
  if length (toks cx) <=? pos s1 then Ok s1 else p_advance cx (open_error_node s1) true.
Proof. reflexivity. Qed.

Section Skip.
Variable cx : pctx.

(* the state after the skipping loop, started at [p] on tree [c] and ghost [g]; [b] is the error flag *)
Definition skipped_to (s : pstate) (p : nat) (c : cst) (g : option ghost) (b : bool) : pstate :=
  let r := skip_loop cx (length (toks cx)) p c g in
  mkSt (snd (fst r)) (fst (fst (fst r))) (snd (fst (fst r))) (err_node s) (in_choice s) b (diags s) (log s) (snd r)
    (snaps s).

Definition advanced (s : pstate) (b : bool) : pstate :=
  skipped_to s (S (pos s)) (c_advance (cstd s) (cur s) false)
    (if pos s <? length (toks cx) then gstep s (BAdvance (cur s) false) else None) b.

Lemma p_init_skip_eq st : p_init_skip cx st = skipped_to st (pos st) (cstd st) (gh st) (esa st).
Proof. unfold p_init_skip, skipped_to. destruct (skip_loop _ _ _ _ _) as [[[p' t'] c'] g']. reflexivity. Qed.

Lemma p_advance_inv st e s' :
  p_advance cx st e = Ok s' ->
  if e then s' = advanced st (esa st) else exists s, p_close_error_node st = Ok s /\ s' = advanced s false.
Proof.
  unfold p_advance, advanced, skipped_to. destruct e.
  - cbv beta iota zeta. destruct (skip_loop _ _ _ _ _) as [[[p' t'] c'] g']. intros [= <-]. reflexivity.
  - destruct (p_close_error_node st) as [s|]; [|discriminate]. intros H. exists s. split; [reflexivity|]. revert H.
    unfold gstep. cbn [cstd pos cur gh]. destruct (skip_loop _ _ _ _ _) as [[[p' t'] c'] g']. intros [= <-]. reflexivity.
Qed.

Lemma drain_none : forall l c c' g', drain_toks cx l c None = (c', g') -> g' = None.
Proof. induction l as [|t l IH]; intros c c' g'; cbn; [intros [= _ <-]; reflexivity|apply IH]. Qed.

Lemma skip_loop_drain : forall fuel p c g,
  length (toks cx) - p <= fuel ->
  let '(p', t', c', g') := skip_loop cx fuel p c g in
  (exists l, p' = p + length l /\ skipn p (toks cx) = l ++ skipn p' (toks cx) /\ drain_toks cx l c g = (c', g'))
  /\ (t' = nth p' (toks cx) (eoi cx) /\ (p' < length (toks cx) -> is_skipped cx t' = false))
  /\ (p <= length (toks cx) -> p' <= length (toks cx)).
Proof.
  assert (H0 : forall p c g,
             exists l, p = p + length l /\ skipn p (toks cx) = l ++ skipn p (toks cx) /\ drain_toks cx l c g = (c, g))
    by (intros p c g; exists []; rewrite Nat.add_0_r; auto).
  induction fuel as [|fuel IH]; intros p c g Hf; cbn [skip_loop].
  - rewrite nth_overflow by lia. repeat split; auto; lia.
  - destruct (nth_error (toks cx) p) as [t|] eqn:En.
    + destruct (is_skipped cx t) eqn:Esk.
      * assert (Hlt : p < length (toks cx)) by (apply nth_error_Some; congruence).
        specialize (IH (S p) (c_advance c t true) (match g with Some g0 => g_step g0 c (BAdvance t true) | None => None end)).
        destruct (skip_loop cx fuel (S p) _ _) as [[[p' t'] c'] g']. destruct IH as ((l & -> & Hl & Hd) & Ht & Hle); [lia|].
        split; [|split; [exact Ht|intros _; exact (Hle Hlt)]].
        exists (t :: l). cbn [length drain_toks]. rewrite Esk, Nat.add_succ_r, (skipn_nth_error _ _ _ En), Hl. auto.
      * rewrite (nth_error_nth _ _ _ En). auto.
    + apply nth_error_None in En. rewrite nth_overflow by exact En. repeat split; auto; lia.
Qed.

Lemma skipped_to_spec s p c g b :
  let s' := skipped_to s p c g b in
  (exists l, pos s' = p + length l /\ skipn p (toks cx) = l ++ skipn (pos s') (toks cx)
     /\ drain_toks cx l c g = (cstd s', gh s'))
  /\ (cur s' = nth (pos s') (toks cx) (eoi cx) /\ (pos s' < length (toks cx) -> is_skipped cx (cur s') = false))
  /\ (p <= length (toks cx) -> pos s' <= length (toks cx)).
Proof.
  unfold skipped_to. pose proof (skip_loop_drain (length (toks cx)) p c g (Nat.le_sub_l _ _)) as H.
  destruct (skip_loop _ _ _ _ _) as [[[p' t'] c'] g']. exact H.
Qed.

Definition skipped_to_drain s p c g b := proj1 (skipped_to_spec s p c g b).
Definition skipped_to_cur s p c g b := proj1 (proj2 (skipped_to_spec s p c g b)).
Definition skipped_to_le s p c g b := proj2 (proj2 (skipped_to_spec s p c g b)).

Lemma skipped_to_none s p c b : gh (skipped_to s p c None b) = None.
Proof. destruct (skipped_to_drain s p c None b) as (l & _ & _ & Hd). exact (drain_none _ _ _ _ Hd). Qed.

Lemma skipped_to_ge s p c g b : p <= pos (skipped_to s p c g b).
Proof. destruct (skipped_to_drain s p c g b) as (l & -> & _). apply Nat.le_add_r. Qed.

End Skip.

Section Kept.
Variable cx : pctx.
Variable R : pstate -> pstate -> Prop.

Record kept : Prop := mkKept {
  k_refl : forall st, R st st;
  k_trans : forall a b c, R a b -> R b c -> R a c;
  k_advance : forall st e s, p_advance cx st e = Ok s -> R st s;
  k_error : forall st m, R st (p_error st (mk_diag cx st m));
  k_awe : forall st m s, p_advance_with_error cx st m = Ok s -> R st s;
  k_open : forall st mk s, p_open st = Ok (mk, s) -> R st s;
  k_open_before : forall st m mk s, p_open_before st m = Ok (mk, s) -> R st s;
  k_close : forall st m k mk s, p_close st m k = Ok (mk, s) -> R st s;
  k_mark : forall st mk s, p_mark st = Ok (mk, s) -> R st s;
  k_event : forall st e, R st (add_event st e);
  k_set_choice : forall st b, R st (set_in_choice st b);
}.

(* It is enough to look at the steps the operations are made of.  In the step [advanced s b] the new
   error flag [b] is the old one (advance inside an error) or the error node has just been closed. *)
Lemma kept_of_steps :
  (forall st, R st st) -> (forall a b c, R a b -> R b c -> R a c) ->
  (forall s b, b = esa s \/ err_node s = None -> R s (advanced cx s b)) ->
  (forall st m, R st (p_error st (mk_diag cx st m))) ->
  (forall st s, p_close_error_node st = Ok s -> R st s) ->
  (forall s s', tree_step s s' -> R s s') ->
  (forall s, active_error s = true -> R s (open_error_node s)) ->
  (forall st e, R st (add_event st e)) ->
  (forall st b, R st (set_in_choice st b)) ->
  kept.
Proof.
  intros Hrefl Htrans Hadvd Herr Hcen Htree Hoen Hev Hsic.
  assert (Hadv : forall st e s, p_advance cx st e = Ok s -> R st s).
  { intros st e s H. apply p_advance_inv in H. destruct e; [subst s; apply Hadvd; auto|].
    destruct H as (s0 & H0 & ->). refine (Htrans _ _ _ (Hcen _ _ H0) (Hadvd _ _ (or_intror _))).
    apply (p_close_error_node_fields _ _ H0). }
  constructor; try assumption.
  - intros st m s. rewrite p_advance_with_error_eq. cbv zeta.
    destruct (length (toks cx) <=? pos (p_error st (mk_diag cx st m))).
    + intros [= <-]. apply Herr.
    + intros H. eapply Htrans; [apply Herr|]. eapply Htrans; [apply Hoen, active_error_p_error|]. eapply Hadv. exact H.
  - intros st mk s H. destruct (p_open_inv _ _ _ H) as (s0 & H0 & H1). exact (Htrans _ _ _ (Hcen _ _ H0) (Htree _ _ H1)).
  - intros st m mk s H. destruct (p_open_before_inv _ _ _ _ H) as (s0 & H0 & H1).
    exact (Htrans _ _ _ (Hcen _ _ H0) (Htree _ _ H1)).
  - intros st m k mk s H. destruct (p_close_inv _ _ _ _ _ H) as (s0 & H0 & H1).
    exact (Htrans _ _ _ (Hcen _ _ H0) (Htree _ _ H1)).
  - intros st mk s H. exact (Hcen _ _ (p_mark_inv _ _ _ H)).
Qed.

End Kept.

Definition after {X} (Q : pstate -> Prop) (r : xres (X * pstate)) : Prop :=
  match r with XOk (_, st') => Q st' | _ => True end.

Lemma after_XOk {X} (Q : pstate -> Prop) (r : xres (X * pstate)) x st' : r = XOk (x, st') -> after Q r -> Q st'.
Proof. intros -> H. exact H. Qed.

Lemma after_mono {X} (Q Q' : pstate -> Prop) (r : xres (X * pstate)) :
  (forall s, Q s -> Q' s) -> after Q r -> after Q' r.
Proof. intros HQ. destruct r as [[x s]| | |]; [apply HQ|trivial..]. Qed.

Lemma after_bind {X Y} (Q Q' : pstate -> Prop) (r : xres (X * pstate)) (k : X * pstate -> xres (Y * pstate)) :
  after Q r -> (forall x s, Q s -> after Q' (k (x, s))) ->
  after Q' match r with XOk a => k a | XPanic w => XPanic w | XFuel => XFuel | XStuck w => XStuck w end.
Proof. destruct r as [[x s]| | |]; [|trivial..]. intros H Hk. exact (Hk x s H). Qed.

Section ExecRel.
Variable cx : pctx.
Variable prog : program.
Variable orc : oracles.
Variable R : pstate -> pstate -> Prop.
Variable A : saved -> pstate -> pstate -> Prop.
Variable ok : stmt -> bool.

Definition alts_ok (alts : list (list tok * list stmt)) : bool := forallb (fun a => forallb ok (snd a)) alts.

Definition ok_inside (s : stmt) : Prop :=
  match s with
  | SIfNotElide b | SLoop b => forallb ok b = true
  | SMatch arms d => forallb (fun a => forallb ok (snd a)) arms = true /\ forallb ok d = true
  | SOrdChoice _ _ alts _ last _ => alts_ok alts = true /\ forallb ok last = true
  | _ => True
  end.

Definition ok_rec (rec_of : option (bool * bool * list stmt)) : Prop :=
  match rec_of with Some (_, _, body) => forallb ok body = true | None => True end.

Definition ok_fn (f : rule_fn) : bool :=
  forallb ok (fn_body f) && match fn_rec f with Some (_, b) => forallb ok b | None => true end.

Hypothesis ok_hered : forall s, ok s = true -> ok_inside s.
Hypothesis ok_rules : forall r f, find_rule prog r = Some f -> ok_fn f = true.

Hypothesis HR : kept cx R.
Hypothesis R_assert : forall n b st, ok (SAssert n b) = true -> R st (push_assert_diag cx st).
Hypothesis A_enter : forall a b alts lp last m st sv st0 st',
  ok (SOrdChoice a b alts lp last m) = true -> p_get_state st = (sv, st0) -> A sv st0 st' -> R st st'.
Hypothesis A_leave : forall sv st1 st3, R st1 st3 -> A sv st1 (p_release st3).
Hypothesis A_retry : forall sv st1 st2 st',
  R st1 st2 -> A sv (p_set_state (deletable prog) st2 sv) st' -> A sv st1 st'.

(* [simpl] is what folds the calls among the five interpreter functions back; it must not open the runtime *)
Local Opaque p_get_state p_set_state p_release p_error p_advance p_advance_with_error p_open p_open_before p_close
  p_mark add_event set_in_choice push_assert_diag find_rule deletable tok_in env_get env_set env_leave active_error
  mk_diag.

Theorem exec_rel : forall fuel,
  (forall rec_of s e st, ok s = true -> ok_rec rec_of -> after (R st) (exec cx prog orc fuel rec_of s e st))
  /\ (forall rec_of b e st,
      forallb ok b = true -> ok_rec rec_of -> after (R st) (exec_block cx prog orc fuel rec_of b e st))
  /\ (forall rec_of n l e st,
      forallb ok l = true -> ok_rec rec_of -> after (R st) (exec_seq cx prog orc fuel rec_of n l e st))
  /\ (forall rec_of sv sel sk alts lp last m e1 st1,
      alts_ok alts = true -> forallb ok last = true -> ok_rec rec_of ->
      after (A sv st1) (exec_alts cx prog orc fuel rec_of sv sel sk alts lp last m e1 st1))
  /\ (forall f st, ok_fn f = true -> after (R st) (call_fn cx prog orc fuel f st)).
Proof.
  induction fuel as [|fuel IH].
  { repeat split; intros; exact I. }
  destruct IH as (IHe & IHb & IHs & IHa & IHc).
  pose proof HR as [Rr Rt Radv Rerr Rawe Ropen Rob Rclose Rmark Rev Rsic].
  (* open_before, close and the creation event, as in create_node and the error returns *)
  assert (Rcreate : forall st x k on s1 c2 s2 ev,
             p_open_before st x = Ok (on, s1) -> p_close s1 on k = Ok (c2, s2) -> R st (add_event s2 ev)).
  { intros st x k on s1 c2 s2 ev E1 E2.
    exact (Rt _ _ _ (Rob _ _ _ _ E1) (Rt _ _ _ (Rclose _ _ _ _ _ E2) (Rev _ _))). }
  split; [|split; [|split; [|split]]].
  - intros rec_of s e st Hok Hrec.
    pose proof (ok_hered s Hok) as Hin.
    destruct s; rewrite ?exec_match_eq; simpl; cbn [ok_inside] in Hin.
    + destruct (Nat.eqb (cur st) t).
      * destruct (p_advance cx st false) as [s1|] eqn:E; [exact (Radv _ _ _ E)|exact I].
      * destruct (try_ && in_choice st); [apply Rr|apply Rerr].
    + destruct (find_rule prog r) as [f|] eqn:Ef; [|exact I].
      apply (after_bind _ _ _ _ (IHc f st (ok_rules _ _ Ef))). intros some s1 H1.
      destruct (q && negb some); exact H1.
    + destruct rec_of as [[[opt hb] body]|]; [|exact I].
      destruct (env_get e v) as [mk|]; [|exact I].
      apply (after_bind _ _ _ _ (IHb _ body _ st Hrec Hrec)). intros [o1 e1] s1 H1.
      destruct (q && _); exact H1.
    + destruct (p_mark st) as [[mk s1]|] eqn:E; [exact (Rmark _ _ _ E)|exact I].
    + destruct (p_open st) as [[mk s1]|] eqn:E; [exact (Ropen _ _ _ E)|exact I].
    + destruct (env_get e v) as [x|]; [|exact I].
      destruct (p_open_before st x) as [[mk s1]|] eqn:E; [exact (Rob _ _ _ _ E)|exact I].
    + apply Rr.
    + destruct (env_set e VElide 1); [apply Rr|exact I].
    + destruct decl; [apply Rr|]. destruct (env_set e VKind k); [apply Rr|exact I].
    + destruct (env_get e VM) as [m|]; [|exact I].
      destruct (match k with Some k0 => Some k0 | None => env_get e VKind end) as [k0|]; [|exact I].
      destruct (p_close st m k0) as [[closed s1]|] eqn:E; [|exact I].
      pose proof (Rt _ _ _ (Rclose _ _ _ _ _ E) (Rev _ (ECreate k0 closed))) as HR1.
      destruct assign_lhs; [destruct (env_set e VLhs closed); [|exact I]|]; exact HR1.
    + destruct (env_get e VElide) as [[|n]|]; [exact (IHb _ _ _ _ Hin Hrec)|apply Rr|exact I].
    + destruct (env_get e v) as [x|]; [|exact I].
      destruct (p_open_before st x) as [[on s1]|] eqn:E1; [|exact I].
      destruct (p_close s1 on k) as [[c2 s2]|] eqn:E2; [exact (Rcreate _ _ _ _ _ _ _ _ E1 E2)|exact I].
    + apply Rev.
    + destruct (o_assert orc n st); [destruct (ocr && in_choice st)|];
        [apply Rr|exact (R_assert _ _ _ Hok)|apply Rr].
    + apply Rsic.
    + destruct Hin as (Ha & Hd).
      exact (IHb _ _ _ _ (pick_arm_forallb orc (forallb ok) st default arms Ha Hd) Hrec).
    + apply (after_bind _ _ _ _ (IHb _ b e st Hin Hrec)). intros [o1 e1] s1 H1.
      destruct o1; try exact H1; exact (after_mono _ _ _ (fun s => Rt _ _ s H1) (IHe _ _ _ _ Hok Hrec)).
    + apply Rr.
    + apply Rr.
    + destruct (env_get e VMinBp) as [mb|]; [|exact I]. destruct (n <? mb); apply Rr.
    + destruct (if save_elide then env_get e VElide else Some 0) as [el0|]; [|exact I].
      destruct (if save_kind then env_get e VKind else Some 0) as [k0|]; [|exact I].
      destruct (p_get_state st) as [sv st0] eqn:Eg. destruct Hin as (Ha & Hl).
      exact (after_mono _ _ _ (fun st' => A_enter _ _ _ _ _ _ _ _ _ st' Hok Eg) (IHa _ _ _ _ _ _ _ _ _ _ Ha Hl Hrec)).
    + destruct (active_error st); [|apply Rr].
      destruct e0.
      * destruct (env_get e VM) as [m|]; [|exact I].
        destruct (p_close st m kError) as [[closed s1]|] eqn:E; [|exact I].
        exact (Rt _ _ _ (Rclose _ _ _ _ _ E) (Rev _ _)).
      * apply Rr.
      * destruct (env_get e VElide) as [[|n]|]; [| |exact I];
          (destruct (env_get e VStart) as [x|]; [|exact I]).
        -- destruct (p_open_before st x) as [[m s1]|] eqn:E1; [|exact I].
           destruct (p_close s1 m kError) as [[closed s2]|] eqn:E2; [exact (Rcreate _ _ _ _ _ _ _ _ E1 E2)|exact I].
        -- apply Rr.
    + apply Rerr.
    + destruct (p_advance_with_error cx st m) as [s1|] eqn:E; [exact (Rawe _ _ _ E)|exact I].
    + destruct (in_choice st); apply Rr.
  - intros rec_of b e st. exact (IHs rec_of (length e) b e st).
  - intros rec_of n l e st Hok Hrec.
    destruct l as [|s r]; [exact (Rr st)|].
    cbn [forallb] in Hok. apply andb_prop in Hok as (Hs & Hr). rewrite exec_seq_cons.
    apply (after_bind _ _ _ _ (IHe rec_of s e st Hs Hrec)). intros [o1 e1] s1 H1.
    destruct o1; try exact H1. exact (after_mono _ _ _ (fun s => Rt _ _ s H1) (IHs _ _ _ _ _ Hr Hrec)).
  - intros rec_of sv sel sk alts lp last m e1 st1 Ha Hl Hrec.
    destruct alts as [|[pats body] r]; simpl.
    + (* the final alternative *)
      pose proof (Rsic st1 false) as R12.
      destruct (tok_in (cur (set_in_choice st1 false)) lp).
      * apply (after_bind _ _ _ _ (IHb _ last e1 _ Hl Hrec)). intros [o1 e2] st3 H3.
        exact (A_leave _ _ _ (Rt _ _ _ R12 H3)).
      * destruct (p_advance_with_error cx _ m) as [st3|] eqn:E; [|exact I].
        exact (A_leave _ _ _ (Rt _ _ _ R12 (Rawe _ _ _ E))).
    + cbn [alts_ok forallb snd] in Ha. apply andb_prop in Ha as (Hb & Hr).
      destruct (tok_in (cur st1) pats); [|exact (IHa _ _ _ _ _ _ _ _ _ _ Hr Hl Hrec)].
      apply (after_bind _ _ _ _ (IHb _ body e1 st1 Hb Hrec)). intros [o1 e2] st2 H2.
      destruct o1; try exact I; [exact (A_leave _ _ _ H2)|].
      (* abandoned: restore, try the next one *)
      destruct (if fst sel then _ else _) as [e3|]; [|exact I].
      destruct (if fst sk then _ else _) as [e4|]; [|exact I].
      exact (after_mono _ _ _ (fun st' => A_retry _ _ _ st' H2) (IHa _ _ _ _ _ _ _ _ _ _ Hr Hl Hrec)).
  - intros f st (Hb & Hr)%andb_prop. rewrite call_fn_S.
    refine (after_bind _ _ _ _ (IHb _ (fn_body f) [] st Hb _) _).
    + unfold ok_rec. destruct (fn_rec f) as [[hb b]|]; [exact Hr|exact I].
    + intros [o1 e1] s1 H1. exact H1.
Qed.

End ExecRel.

Section ExecRelAll.
Variable cx : pctx.
Variable prog : program.
Variable orc : oracles.
Variable R : pstate -> pstate -> Prop.
Variable A : saved -> pstate -> pstate -> Prop.

Hypothesis HR : kept cx R.
Hypothesis R_assert : forall st, R st (push_assert_diag cx st).
Hypothesis A_enter : forall st sv st0 st', p_get_state st = (sv, st0) -> A sv st0 st' -> R st st'.
Hypothesis A_leave : forall sv st1 st3, R st1 st3 -> A sv st1 (p_release st3).
Hypothesis A_retry : forall sv st1 st2 st',
  R st1 st2 -> A sv (p_set_state (deletable prog) st2 sv) st' -> A sv st1 st'.

Theorem exec_rel_all : forall fuel,
  (forall rec_of s e st o e' st',
      exec cx prog orc fuel rec_of s e st = XOk (o, e', st') -> R st st')
  /\ (forall rec_of b e st o e' st',
      exec_block cx prog orc fuel rec_of b e st = XOk (o, e', st') -> R st st')
  /\ (forall rec_of n l e st o e' st',
      exec_seq cx prog orc fuel rec_of n l e st = XOk (o, e', st') -> R st st')
  /\ (forall rec_of sv sel sk alts lp last m e1 st1 o e' st',
      exec_alts cx prog orc fuel rec_of sv sel sk alts lp last m e1 st1 = XOk (o, e', st') -> A sv st1 st')
  /\ (forall f st some st',
      call_fn cx prog orc fuel f st = XOk (some, st') -> R st st').
Proof.
  intros fuel.
  assert (Hall : forall X (p : X -> list stmt) l, forallb (fun a => forallb (fun _ => true) (p a)) l = true).
  { intros X p l. induction l as [|a l IH]; [reflexivity|]. cbn [forallb]. rewrite forallb_all. exact IH. }
  assert (Hfn : forall f, ok_fn (fun _ => true) f = true).
  { intros f. unfold ok_fn. rewrite forallb_all. destruct (fn_rec f) as [[? body]|]; [apply forallb_all|reflexivity]. }
  assert (Hrec : forall rec_of, ok_rec (fun _ => true) rec_of).
  { intros [[[? ?] body]|]; [apply forallb_all|exact I]. }
  destruct (exec_rel cx prog orc R A (fun _ => true)) with (fuel := fuel) as (He & Hb & Hs & Ha & Hc).
  - intros s _. destruct s; cbn [ok_inside]; try exact I; try apply forallb_all; (split; [apply Hall|apply forallb_all]).
  - intros r f _. apply Hfn.
  - exact HR.
  - intros n b st _. apply R_assert.
  - intros a b alts lp last m st sv st0 st' _. apply A_enter.
  - exact A_leave.
  - exact A_retry.
  - repeat split; intros; (eapply after_XOk; [eassumption|]).
    + apply He; [reflexivity|apply Hrec].
    + apply Hb; [apply forallb_all|apply Hrec].
    + apply Hs; [apply forallb_all|apply Hrec].
    + apply Ha; [apply Hall|apply forallb_all|apply Hrec].
    + apply Hc, Hfn.
Qed.

Definition exec_keeps (fuel : nat) : Prop :=
  (forall rec_of s e st o e' st', exec cx prog orc fuel rec_of s e st = XOk (o, e', st') -> R st st')
  /\ (forall rec_of b e st o e' st', exec_block cx prog orc fuel rec_of b e st = XOk (o, e', st') -> R st st')
  /\ (forall f st some st', call_fn cx prog orc fuel f st = XOk (some, st') -> R st st').

Lemma exec_keeps_all fuel : exec_keeps fuel.
Proof. destruct (exec_rel_all fuel) as (He & Hb & _ & _ & Hc). exact (conj He (conj Hb Hc)). Qed.

End ExecRelAll.
