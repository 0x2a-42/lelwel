(* C10: what LL1Validator::check (Sema.check_regex) reports is exactly the definition of an
   LL(1) conflict over the predict and follow sets.  For a rule that is not left recursive, and
   for every construct nested anywhere ([Conflict]):
     E011 at a branch   iff the branch has no leading predicate and shares a predict
                            token with a later branch of the same alternation;
     E013 at a loop     iff its body has no leading predicate and shares a predict
                            token with what may follow the loop;
     E014 at an option  iff likewise for the option.
   Hence: no such diagnostic iff every alternation, repetition and option of the
   rule can be decided with one token of lookahead (or is explicitly guarded).
   For the top alternation of a left-recursive rule: E012 at the operator of a left-recursive
   branch iff [OpConflict]; the other branches are compared among themselves as above.
   The proof separates what check_regex emits at one node ([node_diags], [left_diags]) from the
   walk over the nodes ([check_regex_nodes]). *)
From Coq Require Import List Arith Bool.
From LV Require Import Sema SetLemmas FirstSpec.
Import ListNotations.

Section Conf.
Variable fi fo pr lf : smap.

Definition share (s1 s2 : set) : Prop := exists x, mem x s1 = true /\ mem x s2 = true.

Lemma nonempty_inter s1 s2 : nonempty (inter s1 s2) = true <-> share s1 s2.
Proof.
  unfold share. rewrite nonempty_In.
  split; intros (x & H); exists x; [apply mem_inter, mem_In, H|apply mem_In, mem_inter, H].
Qed.

Definition is_ll1 (c : dcode) : bool := match c with E011 | E013 | E014 => true | _ => false end.

Definition local (y : regex) (c : dcode) (n : nat) : Prop :=
  match y with
  | RAlt _ alts =>
    c = E011 /\ exists i op, nth_error alts i = Some op /\ n = rid_of op /\ has_predicate op = false
                /\ exists j o, i < j /\ nth_error alts j = Some o /\ share (get pr (rid_of op)) (get pr (rid_of o))
  | RStar id op | RPlus id op =>
    c = E013 /\ n = id /\ has_predicate op = false /\ share (get fo id) (get pr (rid_of op))
  | ROpt id op =>
    c = E014 /\ n = id /\ has_predicate op = false /\ share (get fo id) (get pr (rid_of op))
  | _ => False
  end.

Definition Conflict (x : regex) (c : dcode) (n : nat) : Prop :=
  exists y, In y (subs x) /\ local y c n.

Lemma local_ll1 y c n : local y c n -> is_ll1 c = true.
Proof. destruct y; cbn [local]; try contradiction; intros (-> & _); reflexivity. Qed.

(* [lr]: the branches are those of a left-recursive rule, compared by their operators *)
Lemma check_intersection_spec op bs i lr c n :
  In (c, n) (check_intersection pr op bs i lr false) <->
  c = (if lr then E012 else E011) /\ n = rid_of op
  /\ exists j b o, i < j /\ nth_error bs j = Some b /\ (if lr then skip_first b else Some b) = Some o
                   /\ share (get pr (rid_of op)) (get pr (rid_of o)).
Proof.
  unfold check_intersection. cbv iota. rewrite In_when, nonempty_filter, existsb_exists. split.
  - intros ((b & Hb & H) & [= -> ->]). apply In_skipn in Hb. destruct Hb as (j & Hj & Hn).
    destruct (if lr then skip_first b else Some b) as [o|] eqn:Eo; [|discriminate].
    split; [reflexivity|]. split; [reflexivity|]. exists j, b, o. rewrite Eo.
    split; [exact Hj|]. split; [exact Hn|]. split; [reflexivity|]. apply nonempty_inter, H.
  - intros (-> & -> & j & b & o & Hj & Hn & Eo & H). split; [|reflexivity].
    exists b. split; [apply In_skipn; exists j; split; [exact Hj|exact Hn]|]. rewrite Eo. apply nonempty_inter, H.
Qed.

Lemma check_intersection_ordered op bs i lr c n :
  In (c, n) (check_intersection pr op bs i lr true) -> c = W007.
Proof.
  unfold check_intersection. cbv iota. destruct (nonempty _); [intros []|].
  intros [[= <- _]|[]]. reflexivity.
Qed.

(* the d2 block of check_regex *)
Definition alt_diags (L : list regex) : list (dcode * nat) :=
  flat_map (fun '(i, op) => if has_predicate op then [] else check_intersection pr op L i false false)
           (enumerate 0 L).

Lemma alt_diags_spec id L c n : In (c, n) (alt_diags L) <-> local (RAlt id L) c n.
Proof.
  unfold alt_diags. cbn [local]. rewrite in_flat_map. split.
  - intros ([i op] & Hin & H). apply In_enumerate in Hin. destruct Hin as (k & -> & Hn).
    destruct (has_predicate op) eqn:Ep; [contradiction|].
    apply check_intersection_spec in H. destruct H as (-> & -> & j & b & o & Hj & Hb & [= ->] & Hs).
    split; [reflexivity|]. exists k, op. repeat split; try assumption. exists j, o. auto.
  - intros (-> & i & op & Hn & -> & Hp & j & o & Hj & Ho & Hs).
    exists (i, op). split; [apply In_enumerate; exists i; auto|].
    rewrite Hp. apply check_intersection_spec. repeat split. exists j, o, o. auto.
Qed.

Definition loop_diag (code : dcode) (id : nat) (op : regex) : list (dcode * nat) :=
  if negb (has_predicate op) && nonempty (inter (get fo id) (get pr (rid_of op))) then [(code, id)] else [].

Lemma loop_diag_spec code id op c n :
  In (c, n) (loop_diag code id op) <->
  c = code /\ n = id /\ has_predicate op = false /\ share (get fo id) (get pr (rid_of op)).
Proof.
  unfold loop_diag. rewrite In_when. split.
  - intros (H & [= -> ->]). apply andb_prop in H. destruct H as (Hp & Hs).
    apply negb_true_iff in Hp. apply nonempty_inter in Hs. auto.
  - intros (-> & -> & Hp & Hs). split; [|reflexivity]. rewrite Hp. apply nonempty_inter, Hs.
Qed.

Definition choice_diags (ops : list regex) : list (dcode * nat) :=
  flat_map (fun '(i, op) => if Nat.eqb (S i) (length ops) then [] else check_intersection pr op ops i false true)
           (enumerate 0 ops).

Lemma choice_diags_code ops c n : In (c, n) (choice_diags ops) -> c = W007.
Proof.
  intros H. apply in_flat_map in H. destruct H as ([i op] & _ & H).
  destruct (Nat.eqb (S i) (length ops)); [contradiction|]. eapply check_intersection_ordered, H.
Qed.

Definition node_diags (x : regex) : list (dcode * nat) :=
  match x with
  | RAlt _ alts => alt_diags alts
  | RStar id op | RPlus id op => loop_diag E013 id op
  | ROpt id op => loop_diag E014 id op
  | RRule id _ => if has fi id && negb (nonempty (get fi id)) then [(E015, id)] else []
  | RChoice _ ops => choice_diags ops
  | _ => []
  end.

Lemma node_diags_local y c n : is_ll1 c = true -> (In (c, n) (node_diags y) <-> local y c n).
Proof.
  intros Hc. destruct y as [|id r| |id alts|id ops|id op|id op|id op| |]; cbn [node_diags local];
    try apply loop_diag_spec; try (split; intros []).
  - rewrite In_when. split; [|intros []]. intros (_ & [= -> _]). discriminate.
  - apply (alt_diags_spec id).
  - split; [|intros []]. intros H. apply choice_diags_code in H. subst c. discriminate.
Qed.

Lemma node_diags_no_E012 y n : ~ In (E012, n) (node_diags y).
Proof.
  destruct y as [|id r| |id alts|id ops|id op|id op|id op| |]; cbn [node_diags]; try (intros []);
    try (rewrite loop_diag_spec; intros ([=] & _)).
  - rewrite In_when. intros (_ & [=]).
  - rewrite (alt_diags_spec id). intros ([=] & _).
  - intros H. apply choice_diags_code in H. discriminate.
Qed.

Definition lefts_of (recs : list recursion) : list regex :=
  flat_map (fun b => match b with RecLeft o _ | RecLeftRight o _ _ => [o] | _ => [] end) recs.

Definition nonleft_of (recs : list recursion) (alts : list regex) : list regex :=
  filter (fun o => negb (existsb (fun b => match b with
                                           | RecLeft o' _ | RecLeftRight o' _ _ => Nat.eqb (rid_of o') (rid_of o)
                                           | _ => false end) recs)) alts.

Lemma nonleft_of_nil alts : nonleft_of [] alts = alts.
Proof. induction alts as [|o r IH]; cbn; [reflexivity|]. f_equal. exact IH. Qed.

(* the d1 block of check_regex *)
Definition left_diags (id : nat) (L : list regex) : list (dcode * nat) :=
  flat_map (fun '(i, branch) =>
              match skip_first branch with
              | None => [(E015, rid_of branch)]
              | Some op =>
                if has_predicate branch then []
                else (if nonempty (inter (get pr (rid_of op)) (get lf id)) then [(E012, rid_of op)] else [])
                     ++ check_intersection pr op L i true false
              end) (enumerate 0 L).

Lemma check_alt_step fuel id alts recs d :
  In d (check_regex fi fo pr lf (S fuel) (RAlt id alts) recs) <->
  In d (left_diags id (lefts_of recs)) \/ In d (alt_diags (nonleft_of recs alts))
  \/ exists o, In o alts /\ In d (check_regex fi fo pr lf fuel o []).
Proof. rewrite <- in_flat_map, <- !in_app_iff. reflexivity. Qed.

Lemma check_regex_step fuel x d :
  In d (check_regex fi fo pr lf (S fuel) x []) <->
  In d (node_diags x) \/ exists o, In o (kids x) /\ In d (check_regex fi fo pr lf fuel o []).
Proof.
  rewrite <- in_flat_map, <- in_app_iff.
  destruct x as [| | |id alts|id ops| | | |? [o|]|]; cbn [node_diags kids];
    try (cbn [check_regex flat_map app]; rewrite ?app_nil_r; reflexivity).
  - rewrite check_alt_step, nonleft_of_nil, in_app_iff, in_flat_map. split; [intros [[]|H]; exact H|auto].
  - cbn [check_regex]. rewrite in_app_iff. apply in_flat_map_enumerate.
Qed.

Lemma check_regex_nodes fuel : forall x d,
  (In d (check_regex fi fo pr lf fuel x []) -> exists y, In y (subs x) /\ In d (node_diags y))
  /\ (rsize x <= fuel -> (exists y, In y (subs x) /\ In d (node_diags y)) -> In d (check_regex fi fo pr lf fuel x [])).
Proof.
  induction fuel as [|fuel IH]; intros x d.
  - split; [intros []|]. intros Hf. destruct (Nat.nle_succ_0 _ (Nat.le_trans _ _ _ (rsize_pos x) Hf)).
  - rewrite check_regex_step, subs_ex. split.
    + intros [H|(o & Ho & H)]; [left; exact H|right]. exists o. split; [exact Ho|]. apply IH, H.
    + intros Hf [H|(o & Ho & H)]; [left; exact H|right]. exists o. split; [exact Ho|].
      apply IH; [apply Nat.lt_succ_r, (Nat.lt_le_trans _ _ _ (rsize_kid x o Ho) Hf)|exact H].
Qed.

Theorem check_regex_exact : forall fuel x, rsize x <= fuel -> forall c n, is_ll1 c = true ->
  (In (c, n) (check_regex fi fo pr lf fuel x []) <-> Conflict x c n).
Proof.
  intros fuel x Hf c n Hc. destruct (check_regex_nodes fuel x (c, n)) as (H1 & H2). split.
  - intros H. destruct (H1 H) as (y & Hy & Hd). exists y. split; [exact Hy|]. apply node_diags_local; assumption.
  - intros (y & Hy & Hl). apply (H2 Hf). exists y. split; [exact Hy|]. apply node_diags_local; assumption.
Qed.

Corollary conflict_free_iff x :
  (forall c n, is_ll1 c = true -> ~ In (c, n) (check_regex fi fo pr lf (S (rsize x)) x []))
  <-> (forall c n, ~ Conflict x c n).
Proof.
  split.
  - intros H c n Hc. destruct Hc as (y & Hy & Hl). pose proof (local_ll1 y c n Hl) as Hc.
    apply (H c n Hc). apply check_regex_exact; [apply Nat.le_succ_diag_r|exact Hc|]. exists y. auto.
  - intros H c n Hl Hin. apply (H c n). apply check_regex_exact in Hin; [assumption|apply Nat.le_succ_diag_r|assumption].
Qed.

(* the operator of an unguarded left-recursive branch may also follow the rule from outside its own
   operator recursion, or is also the operator of a later left-recursive branch *)
Definition OpConflict (recs : list recursion) (id : nat) (n : nat) : Prop :=
  exists i branch op,
    nth_error (lefts_of recs) i = Some branch /\ skip_first branch = Some op /\ n = rid_of op
    /\ has_predicate branch = false
    /\ (share (get pr (rid_of op)) (get lf id)
        \/ exists j branch' op', i < j /\ nth_error (lefts_of recs) j = Some branch'
                                 /\ skip_first branch' = Some op'
                                 /\ share (get pr (rid_of op)) (get pr (rid_of op'))).

Lemma left_diags_sound id recs c n :
  In (c, n) (left_diags id (lefts_of recs)) -> c = E015 \/ c = E012 /\ OpConflict recs id n.
Proof.
  intros H. apply in_flat_map in H. destruct H as ([i branch] & Hin & H).
  apply In_enumerate in Hin. destruct Hin as (k & -> & Hn).
  destruct (skip_first branch) as [op|] eqn:Es; [|destruct H as [[= <- _]|[]]; left; reflexivity].
  destruct (has_predicate branch) eqn:Ep; [contradiction|]. right.
  apply in_app_iff in H. destruct H as [H|H].
  - apply In_when in H. destruct H as (H & [= -> ->]). split; [reflexivity|].
    exists k, branch, op. repeat split; try assumption. left. apply nonempty_inter, H.
  - apply check_intersection_spec in H. destruct H as (-> & -> & H). split; [reflexivity|].
    exists k, branch, op. repeat split; try assumption. right. exact H.
Qed.

Lemma left_diags_complete id recs n : OpConflict recs id n -> In (E012, n) (left_diags id (lefts_of recs)).
Proof.
  intros (i & branch & op & Hn & Hs & -> & Hp & Hc).
  apply in_flat_map. exists (i, branch). split; [apply In_enumerate; exists i; auto|].
  rewrite Hs, Hp. apply in_app_iff. destruct Hc as [Hc|Hc].
  - left. apply In_when. split; [apply nonempty_inter, Hc|reflexivity].
  - right. apply check_intersection_spec. auto.
Qed.

Theorem operator_conflicts_exact fuel id alts recs n :
  In (E012, n) (check_regex fi fo pr lf (S fuel) (RAlt id alts) recs) <-> OpConflict recs id n.
Proof.
  rewrite check_alt_step. split.
  - intros [H|[H|(o & _ & H)]].
    + apply left_diags_sound in H. destruct H as [[=]|(_ & H)]. exact H.
    + apply (alt_diags_spec id) in H. destruct H as ([=] & _).
    + apply check_regex_nodes in H. destruct H as (y & _ & H). destruct (node_diags_no_E012 y n H).
  - intros H. left. apply left_diags_complete, H.
Qed.

Theorem top_alternation_exact fuel id alts recs c n :
  is_ll1 c = true -> list_sum (map rsize alts) <= fuel ->
  (In (c, n) (check_regex fi fo pr lf (S fuel) (RAlt id alts) recs) <->
   local (RAlt id (nonleft_of recs alts)) c n \/ exists o, In o alts /\ Conflict o c n).
Proof.
  intros Hc Hf. rewrite check_alt_step, (alt_diags_spec id).
  assert (Hnest : forall o, In o alts -> (In (c, n) (check_regex fi fo pr lf fuel o []) <-> Conflict o c n)).
  { intros o Ho. apply check_regex_exact; [|exact Hc]. exact (Nat.le_trans _ _ _ (in_list_sum _ _ (in_map rsize _ _ Ho)) Hf). }
  split.
  - intros [H|[H|(o & Ho & H)]]; [|left; exact H|right; exists o; split; [exact Ho|apply Hnest; assumption]].
    apply left_diags_sound in H. destruct H as [->|(-> & _)]; discriminate.
  - intros [H|(o & Ho & H)]; [right; left; exact H|right; right]. exists o. split; [exact Ho|apply Hnest; assumption].
Qed.

End Conf.
