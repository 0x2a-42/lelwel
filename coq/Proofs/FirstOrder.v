(* C15: the first, follow (tokens) and predict (tokens) sets do not depend on the order of the rule
   declarations.  Two grammars that consist of the same rules at permuted positions (references
   renamed accordingly, node ids kept) get the same sets at every node: by C09's exactness theorems the
   computed sets are the derivation-defined first sets and the tokens the textbook rules [Fol] derive,
   and neither derivations nor [Fol] see the positions. *)
From Coq Require Import List Arith Bool.
From LV Require Import Sema SetLemmas FirstSpec FirstCert FollowSpec FollowClosed.
Import ListNotations.

Fixpoint rename (s : nat -> nat) (x : regex) : regex :=
  match x with
  | RTok i t => RTok i t
  | RRule i r => RRule i (s r)
  | RCat i ops => RCat i (map (rename s) ops)
  | RAlt i ops => RAlt i (map (rename s) ops)
  | RChoice i ops => RChoice i (map (rename s) ops)
  | RStar i o => RStar i (rename s o)
  | RPlus i o => RPlus i (rename s o)
  | ROpt i o => ROpt i (rename s o)
  | RParen i (Some o) => RParen i (Some (rename s o))
  | RParen i None => RParen i None
  | RLeaf i k => RLeaf i k
  end.

Lemma rid_rename s x : rid_of (rename s x) = rid_of x.
Proof. destruct x as [| | | | | | | |i [o|]|]; reflexivity. Qed.

Lemma kids_rename s x : kids (rename s x) = map (rename s) (kids x).
Proof. destruct x as [| | | | | | | |i [o|]|]; reflexivity. Qed.

Lemma rename_rename s t : (forall r, t (s r) = r) -> forall x, rename t (rename s x) = x.
Proof.
  intros Hts.
  assert (Hl : forall ops, Forall (fun x => rename t (rename s x) = x) ops ->
                           map (rename t) (map (rename s) ops) = ops).
  { intros ops H. rewrite map_map, (map_ext_Forall _ _ H). apply map_id. }
  induction x as [i t0|i r|i ops IH|i ops IH|i ops IH|i o IH|i o IH|i o IH|i|i o IH|i k] using regex_ind';
    cbn [rename]; repeat f_equal; first [apply Hts|apply Hl, IH|exact IH].
Qed.

Lemma subs_rename s : forall x y, In y (subs x) -> In (rename s y) (subs (rename s x)).
Proof.
  induction x as [x IH] using kids_ind. intros y Hy. rewrite subs_kids in Hy |- *.
  destruct Hy as [<-|Hy]; [left; reflexivity|right].
  apply in_flat_map in Hy. destruct Hy as (o & Ho & Hy). rewrite Forall_forall in IH.
  apply in_flat_map. exists (rename s o). split; [rewrite kids_rename; apply in_map, Ho|apply IH; assumption].
Qed.

Section Perm.
Variables g1 g2 : grammar.
Variable s : nat -> nat.
Hypothesis Hperm : forall r, body_of g2 (s r) = option_map (rename s) (body_of g1 r).

Lemma body_rename r b : body_of g1 r = Some b -> body_of g2 (s r) = Some (rename s b).
Proof. intros H. rewrite Hperm, H. reflexivity. Qed.

Lemma body_rename_none r : body_of g1 r = None -> body_of g2 (s r) = None.
Proof. intros H. rewrite Hperm, H. reflexivity. Qed.

Lemma derives_rename :
  (forall x w, derives g1 x w -> derives g2 (rename s x) w)
  /\ (forall ops w, derives_list g1 ops w -> derives_list g2 (map (rename s) ops) w)
  /\ (forall x w, derives_star g1 x w -> derives_star g2 (rename s x) w).
Proof.
  apply (derives_mutind g1
           (fun x w _ => derives g2 (rename s x) w)
           (fun ops w _ => derives_list g2 (map (rename s) ops) w)
           (fun x w _ => derives_star g2 (rename s x) w)); intros; cbn [rename map].
  2: eapply D_rule; [apply body_rename; eassumption|eassumption].
  2: apply D_rule_empty, body_rename_none; assumption.
  3: eapply D_alt; [apply in_map; eassumption|assumption].
  3: eapply D_choice; [apply in_map; eassumption|assumption].
  all: constructor; assumption.
Qed.

Lemma nodes_rename x : In x (nodes_of g1) -> In (rename s x) (nodes_of g2).
Proof.
  unfold nodes_of at 1. intros Hx. apply in_flat_map in Hx. destruct Hx as (ru & Hru & Hx).
  destruct (r_body ru) as [b|] eqn:Eb; [|contradiction].
  apply In_nth_error in Hru. destruct Hru as [r Hr].
  eapply sub_in_nodes; [eapply body_in_nodes, (body_rename r b)|apply subs_rename; exact Hx].
  unfold body_of, nth_rule. rewrite Hr. exact Eb.
Qed.
End Perm.

Lemma perm_inv g1 g2 s t :
  (forall r, t (s r) = r) -> (forall r, s (t r) = r) ->
  (forall r, body_of g2 (s r) = option_map (rename s) (body_of g1 r)) ->
  forall r, body_of g1 (t r) = option_map (rename t) (body_of g2 r).
Proof.
  intros Hts Hst Hperm r. specialize (Hperm (t r)). rewrite Hst in Hperm. rewrite Hperm.
  destruct (body_of g1 (t r)); cbn [option_map]; [rewrite (rename_rename s t Hts)|]; reflexivity.
Qed.

Theorem first_sets_order_independent g1 g2 s t fuel1 fuel2 m1 m2 :
  (forall r, t (s r) = r) -> (forall r, s (t r) = r) ->
  (forall r, body_of g2 (s r) = option_map (rename s) (body_of g1 r)) ->
  wf_ids_b g1 = true -> productive_b g1 = true -> wf_ids_b g2 = true -> productive_b g2 = true ->
  calc_first g1 fuel1 = Some m1 -> calc_first g2 fuel2 = Some m2 ->
  forall x, In x (nodes_of g1) ->
  forall y, mem y (get m1 (rid_of x)) = mem y (get m2 (rid_of x)).
Proof.
  intros Hts Hst Hperm W1 P1 W2 P2 C1 C2 x Hx y.
  pose proof (first_exact_word g1 fuel1 m1 W1 P1 C1 x Hx y) as E1.
  pose proof (first_exact_word g2 fuel2 m2 W2 P2 C2 _ (nodes_rename g1 g2 s Hperm x Hx) y) as E2.
  rewrite rid_rename in E2. apply eq_true_iff_eq.
  split; intros H; [apply E2; apply E1 in H|apply E1; apply E2 in H];
    destruct H as (w & H & E); exists w; split; try exact E.
  - apply (derives_rename g1 g2 s Hperm), H.
  - apply (derives_rename g2 g1 t (perm_inv g1 g2 s t Hts Hst Hperm)) in H.
    rewrite (rename_rename s t Hts) in H. exact H.
Qed.

Section PermFollow.
Variables g1 g2 : grammar.
Variables fi1 fi2 : smap.
Variable s : nat -> nat.
Hypothesis Hperm : forall r, body_of g2 (s r) = option_map (rename s) (body_of g1 r).
Hypothesis Hstart : g_start g2 = s (g_start g1).
Hypothesis Heof : g_eof g2 = g_eof g1.
Hypothesis Hparts : forall p t, In (p, t) (g_parts g1) -> In (s p, t) (g_parts g2).
Hypothesis Hfi : forall x, In x (nodes_of g1) -> forall y, mem y (get fi1 (rid_of x)) = mem y (get fi2 (rid_of x)).

Lemma fi_rename x y : In x (nodes_of g1) -> mem y (get fi1 (rid_of x)) = true -> mem y (get fi2 (rid_of (rename s x))) = true.
Proof. intros Hx H. rewrite rid_rename, <- (Hfi x Hx). exact H. Qed.

Lemma Forall_nullable_rename l :
  (forall x, In x l -> In x (nodes_of g1)) -> Forall (nullable_fi fi1) l -> Forall (nullable_fi fi2) (map (rename s) l).
Proof.
  rewrite !Forall_forall. intros Hin H y Hy. apply in_map_iff in Hy. destruct Hy as (x & <- & Hx).
  apply fi_rename; [apply Hin, Hx|apply H, Hx].
Qed.

Lemma Fol_rename : forall y a, Fol g1 fi1 y a -> Fol g2 fi2 (rename s y) a.
Proof.
  pose proof (nodes_rename g1 g2 s Hperm) as NR. pose proof (body_rename g1 g2 s Hperm) as BR.
  induction 1 as [sb Hb|sb p t pb Hb Hp Hpb|sb p t pb Hb Hp Hpb|i r b a Hin Hb _ IH
                  |i ops pre x mid y post a Hin -> Hmid Hy|i ops pre x post a Hin -> Hpost _ IH
                  |i ops x a Hin Hx _ IH|i ops x a Hin Hx _ IH|i x a Hin _ IH|i x a Hin Hf
                  |i x a Hin _ IH|i x a Hin Hf|i x a Hin _ IH|i x a Hin _ IH].
  1-3: apply BR in Hb; rewrite <- Hstart in Hb.
  1: rewrite <- Heof; apply F_start, Hb.
  1: eapply F_part_at_start; [exact Hb|apply Hparts, Hp|apply BR, Hpb].
  1: eapply F_part; [exact Hb|apply Hparts, Hp|apply BR, Hpb].
  all: pose proof (NR _ Hin) as Hin2; pose proof (fun o => kid_node g1 _ o Hin) as Hkid; cbn [rename kids] in Hin2, Hkid.
  - eapply F_rule; [exact Hin2|apply BR, Hb|exact IH].
  - eapply F_cat_first; [exact Hin2|rewrite map_app; cbn [map]; rewrite map_app; reflexivity| |].
    + apply Forall_nullable_rename; [|exact Hmid]. intros z Hz.
      apply Hkid, in_or_app. right. right. apply in_or_app. left. exact Hz.
    + apply fi_rename; [|exact Hy]. apply Hkid, in_or_app. right. right. apply in_elt.
  - eapply F_cat_last; [exact Hin2|rewrite map_app; reflexivity| |exact IH].
    apply Forall_nullable_rename; [|exact Hpost]. intros z Hz. apply Hkid, in_or_app. right. right. exact Hz.
  - eapply F_alt; [exact Hin2|apply in_map; exact Hx|exact IH].
  - eapply F_choice; [exact Hin2|apply in_map; exact Hx|exact IH].
  - eapply F_star; [exact Hin2|exact IH].
  - eapply F_star_again; [exact Hin2|]. apply fi_rename; [|exact Hf]. apply Hkid. left. reflexivity.
  - eapply F_plus; [exact Hin2|exact IH].
  - eapply F_plus_again; [exact Hin2|]. rewrite <- (Hfi _ Hin). exact Hf.
  - eapply F_opt; [exact Hin2|exact IH].
  - eapply F_paren; [exact Hin2|exact IH].
Qed.
End PermFollow.

Theorem follow_sets_order_independent g1 g2 s t fi1 fi2 fuel1 fuel2 fo1 lf1 fo2 lf2 :
  (forall r, t (s r) = r) -> (forall r, s (t r) = r) ->
  (forall r, body_of g2 (s r) = option_map (rename s) (body_of g1 r)) ->
  g_start g2 = s (g_start g1) -> g_eof g2 = g_eof g1 ->
  (forall p a, In (p, a) (g_parts g1) <-> In (s p, a) (g_parts g2)) ->
  (forall x, In x (nodes_of g1) -> forall y, mem y (get fi1 (rid_of x)) = mem y (get fi2 (rid_of x))) ->
  wf_ids_b g1 = true -> wf_ids_b g2 = true ->
  calc_follow g1 fi1 fuel1 = Some (fo1, lf1) -> calc_follow g2 fi2 fuel2 = Some (fo2, lf2) ->
  forall x, In x (nodes_of g1) ->
  forall a, mem (T a) (get fo1 (rid_of x)) = mem (T a) (get fo2 (rid_of x)).
Proof.
  intros Hts Hst Hperm Hstart Heof Hparts Hfi W1 W2 C1 C2 x Hx a.
  pose proof (perm_inv g1 g2 s t Hts Hst Hperm) as Hperm'.
  assert (Hstart' : g_start g1 = t (g_start g2)) by (rewrite Hstart, Hts; reflexivity).
  assert (Hparts' : forall p a0, In (p, a0) (g_parts g2) -> In (t p, a0) (g_parts g1)).
  { intros p a0 H. apply Hparts. rewrite Hst. exact H. }
  assert (Hfi' : forall z, In z (nodes_of g2) -> forall y, mem y (get fi2 (rid_of z)) = mem y (get fi1 (rid_of z))).
  { intros z Hz y. pose proof (nodes_rename g2 g1 t Hperm' z Hz) as Hz1.
    specialize (Hfi _ Hz1 y). rewrite rid_rename in Hfi. symmetry. exact Hfi. }
  pose proof (nodes_rename g1 g2 s Hperm x Hx) as Hx2.
  pose proof (follow_exact_any g1 fi1 fuel1 fo1 lf1 W1 C1 x a Hx) as E1.
  pose proof (follow_exact_any g2 fi2 fuel2 fo2 lf2 W2 C2 (rename s x) a Hx2) as E2.
  rewrite rid_rename in E2.
  apply eq_true_iff_eq. rewrite E1, E2. split; intros H.
  - eapply Fol_rename; try eassumption. intros p a0 Hp. apply Hparts. exact Hp.
  - pose proof (Fol_rename g2 g1 fi2 fi1 t Hperm' Hstart' (eq_sym Heof) Hparts' Hfi' _ _ H) as H'.
    rewrite (rename_rename s t Hts) in H'. exact H'.
Qed.

Theorem analysis_sets_order_independent g1 g2 s t fuel1 fuel2 fuel3 fuel4 fi1 fi2 fo1 lf1 fo2 lf2 :
  (forall r, t (s r) = r) -> (forall r, s (t r) = r) ->
  (forall r, body_of g2 (s r) = option_map (rename s) (body_of g1 r)) ->
  g_start g2 = s (g_start g1) -> g_eof g2 = g_eof g1 ->
  (forall p a, In (p, a) (g_parts g1) <-> In (s p, a) (g_parts g2)) ->
  wf_ids_b g1 = true -> productive_b g1 = true -> wf_ids_b g2 = true -> productive_b g2 = true ->
  calc_first g1 fuel1 = Some fi1 -> calc_first g2 fuel2 = Some fi2 ->
  calc_follow g1 fi1 fuel3 = Some (fo1, lf1) -> calc_follow g2 fi2 fuel4 = Some (fo2, lf2) ->
  forall x, In x (nodes_of g1) ->
    (forall y, mem y (get fi1 (rid_of x)) = mem y (get fi2 (rid_of x)))
    /\ (forall a, mem (T a) (get fo1 (rid_of x)) = mem (T a) (get fo2 (rid_of x)))
    /\ (forall a, mem (T a) (get (calc_predict fi1 fo1) (rid_of x)) = mem (T a) (get (calc_predict fi2 fo2) (rid_of x))).
Proof.
  intros Hts Hst Hperm Hstart Heof Hparts W1 P1 W2 P2 C1 C2 F1 F2 x Hx.
  pose proof (first_sets_order_independent g1 g2 s t fuel1 fuel2 fi1 fi2 Hts Hst Hperm W1 P1 W2 P2 C1 C2) as HF.
  pose proof (follow_sets_order_independent g1 g2 s t fi1 fi2 fuel3 fuel4 fo1 lf1 fo2 lf2 Hts Hst Hperm Hstart Heof
                Hparts HF W1 W2 F1 F2 x Hx) as HO.
  split; [apply HF; exact Hx|]. split; [exact HO|].
  intros a. apply eq_true_iff_eq. rewrite !predict_spec.
  rewrite (HF x Hx (T a)), (HF x Hx Eps), (HO a). reflexivity.
Qed.
