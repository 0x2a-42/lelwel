(* C14: the iterative elimination of RecoverySetGenerator::run (Sema.dom_iter, with its
   in-place updates and its `change |=` quirk) computes the dominators of the
   predecessor graph: every member of the computed set of n lies on every path from
   the start node to n (the fixpoint inclusions [dom_fixed]), and every node that lies
   on every such path is a member (an invariant of the iteration).
   The fixpoint inclusions themselves hold of whatever the loop returns: the map only
   shrinks, every stored set stays a superset of what the next recomputation yields, the
   loop stops after a sweep in which every recomputed set has the length of the stored
   one, and for duplicate-free sets inclusion plus equal length is equality.
   C15, one clause: the result does not depend on the order in which the loop iterates
   over its hash set of nodes. *)
From Coq Require Import List Arith Bool.
From LV Require Import Sema SetLemmas.
Import ListNotations.

Lemma In_ninter x a b : In x (ninter a b) <-> In x a /\ In x b.
Proof. unfold ninter. rewrite filter_In, nmem_In. reflexivity. Qed.

Lemma In_fold_ninter (f : nat -> list nat) x ps : forall a,
  In x (fold_left (fun a q => ninter a (f q)) ps a) <-> In x a /\ Forall (fun q => In x (f q)) ps.
Proof.
  induction ps as [|q r IH]; intros a; cbn [fold_left].
  - split; [intros H; split; [exact H|constructor]|intros (H & _); exact H].
  - rewrite IH, In_ninter, Forall_cons_iff. apply and_assoc.
Qed.

Lemma dget_dput (d : dmap) k v k' : dget (dput d k v) k' = if Nat.eqb k' k then v else dget d k'.
Proof.
  induction d as [|[k0 v0] r IH]; cbn [dput dget]; [reflexivity|].
  destruct (Nat.eqb_spec k k0) as [->|Hne]; cbn [dget].
  - destruct (Nat.eqb k' k0); reflexivity.
  - rewrite IH. destruct (Nat.eqb_spec k' k0) as [->|]; [|reflexivity].
    destruct (Nat.eqb_spec k0 k); [congruence|reflexivity].
Qed.

Lemma dget_fold_dput v l : forall d n,
  dget (fold_left (fun d n => dput d n v) l d) n = if nmem n l then v else dget d n.
Proof.
  induction l as [|m r IH]; intros d n; cbn [fold_left]; [reflexivity|].
  rewrite IH, dget_dput. cbn [nmem existsb]. fold (nmem n r).
  destruct (nmem n r); [rewrite orb_true_r|rewrite orb_false_r]; reflexivity.
Qed.

Lemma dget_key (m : dmap) n u : In u (dget m n) -> In n (map fst m).
Proof.
  induction m as [|[k v] r IH]; cbn; [contradiction|].
  destruct (Nat.eqb_spec n k) as [->|Hne]; [left; reflexivity|]. intros H. right. auto.
Qed.

Lemma eqb_singleton l a : match l with [s] => Nat.eqb s a | _ => false end = true <-> l = [a].
Proof.
  destruct l as [|s [|? ?]]; [split; discriminate| |split; discriminate].
  rewrite Nat.eqb_eq. split; [intros ->; reflexivity|intros [= ->]; reflexivity].
Qed.

Section Dom.
Variable pg : pgraph.
Variable start : nat.

(* paths, listed from the node back to the start node *)
Inductive reach : nat -> list nat -> Prop :=
| R_start : reach start [start]
| R_step v u l : reach u l -> In u (dget pg v) -> reach v (v :: l).

Definition dominates (x n : nat) : Prop := forall l, reach n l -> In x l.

Lemma reach_head v l : reach v l -> In v l.
Proof. destruct 1; left; reflexivity. Qed.

Lemma reach_start v l : reach v l -> In start l.
Proof. induction 1; [left; reflexivity|right; assumption]. Qed.

Lemma dominates_pred x n q : dominates x n -> x <> n -> In q (dget pg n) -> dominates x q.
Proof.
  intros Hd Hne Hq l Hl. destruct (Hd (n :: l)) as [He|Hin]; [econstructor; eassumption|congruence|assumption].
Qed.

Definition dom_fixed (d : dmap) : bool :=
  match dget d start with [s] => Nat.eqb s start | _ => false end
  && forallb (fun n =>
                forallb (fun x => Nat.eqb x n || forallb (fun q => nmem x (dget d q)) (dget pg n)) (dget d n))
             (map fst pg).

Lemma dom_fixed_spec d :
  dom_fixed d = true <->
  dget d start = [start]
  /\ forall n, In n (map fst pg) -> forall x, In x (dget d n) -> x = n \/ forall q, In q (dget pg n) -> In x (dget d q).
Proof.
  unfold dom_fixed. rewrite andb_true_iff, eqb_singleton. apply and_iff_compat_l, forallb_iff.
  intros n. apply forallb_iff. intros x. rewrite orb_true_iff, Nat.eqb_eq.
  apply or_iff_compat_l, forallb_iff. intros q. apply nmem_In.
Qed.

Theorem dom_sound d : dom_fixed d = true -> forall n l, reach n l -> forall x, In x (dget d n) -> In x l.
Proof.
  intros H. apply dom_fixed_spec in H. destruct H as (Hs & Hf).
  induction 1 as [|v u l Hr IH Hu]; intros x Hx; [rewrite Hs in Hx; exact Hx|].
  destruct (Hf v (dget_key pg v u Hu) x Hx) as [->|Hq]; [left; reflexivity|right; apply IH, Hq, Hu].
Qed.

End Dom.

Section Init.
Variable pg : pgraph.
Variable start : nat.
Variable nns : list nat.                    (* nodes_no_start: the keys of the graph in hash order *)
Let nodes := nadd start nns.

Definition graph_ok : bool :=
  forallb (fun n => match dget pg n with [] => false | _ => true end) nns
  && forallb (fun n => forallb (fun q => nmem q nodes) (dget pg n)) nns.

Definition d_init : dmap := fold_left (fun d n => dput d n nodes) nns (dput [] start [start]).

End Init.

Section Iter.
Variable pg : pgraph.
Variable start : nat.
Variable nns : list nat.
Let nodes := nadd start nns.
Hypothesis Hg : graph_ok pg start nns = true.

Lemma graph_ok_spec n : In n nns -> dget pg n <> [] /\ incl (dget pg n) nodes.
Proof.
  intros Hn. unfold graph_ok in Hg. rewrite andb_true_iff, !forallb_forall in Hg. destruct Hg as (G1 & G2).
  specialize (G1 n Hn). specialize (G2 n Hn). rewrite forallb_forall in G2. split.
  - intros E. rewrite E in G1. discriminate.
  - intros q Hq. apply nmem_In, G2, Hq.
Qed.

Lemma d_init_get k :
  dget (d_init start nns) k = if nmem k nns then nodes else if Nat.eqb k start then [start] else [].
Proof. unfold d_init. rewrite dget_fold_dput, dget_dput. reflexivity. Qed.

Lemma d_init_incl k : incl (dget (d_init start nns) k) nodes.
Proof.
  rewrite d_init_get. destruct (nmem k nns); [apply incl_refl|].
  destruct (Nat.eqb k start); [|intros x []].
  intros x [<-|[]]. unfold nodes. apply In_nadd. left. reflexivity.
Qed.

Definition newdom (d : dmap) (n : nat) : list nat :=
  match dget pg n with
  | [] => [n]
  | p :: ps => nadd n (fold_left (fun a q => ninter a (dget d q)) ps (dget d p))
  end.

Lemma In_newdom d n x : In n nns ->
  (In x (newdom d n) <-> x = n \/ forall q, In q (dget pg n) -> In x (dget d q)).
Proof.
  intros Hn. apply graph_ok_spec in Hn. destruct Hn as (Hp & _). unfold newdom.
  destruct (dget pg n) as [|p ps]; [contradiction|].
  rewrite In_nadd, In_fold_ninter, <- Forall_forall. apply or_iff_compat_l. symmetry. apply Forall_cons_iff.
Qed.

Lemma dom_pass_cons n r d ch : In n nns ->
  dom_pass pg (n :: r) d ch =
  if ch || negb (Nat.eqb (length (newdom d n)) (length (dget d n)))
  then dom_pass pg r (dput d n (newdom d n)) true else dom_pass pg r d false.
Proof.
  intros Hn. apply graph_ok_spec in Hn. destruct Hn as (Hp & _). unfold dom_pass, newdom. cbn [fold_left].
  destruct (dget pg n); [contradiction|]. cbv zeta. destruct (ch || _); reflexivity.
Qed.

Section Sweep.
Variable I : dmap -> Prop.
Hypothesis Hstep : forall d n, In n nns -> I d -> I (dput d n (newdom d n)).

Lemma dom_pass_spec : forall order d ch d' ch',
  incl order nns -> I d -> dom_pass pg order d ch = (d', ch') ->
  I d' /\ (ch' = false ->
           ch = false /\ d' = d /\ forall n, In n order -> length (newdom d n) = length (dget d n)).
Proof.
  induction order as [|n r IH]; intros d ch d' ch' Hsub HI H.
  - injection H as <- <-. split; [exact HI|]. intros ->. split; [reflexivity|]. split; [reflexivity|intros n []].
  - apply incl_cons_inv in Hsub. destruct Hsub as (Hn & Hsub). rewrite dom_pass_cons in H by exact Hn.
    destruct (ch || _) eqn:Ec; apply IH in H; auto; destruct H as (H1 & H2); (split; [exact H1|]); intros Hf.
    + destruct (H2 Hf) as ([=] & _).
    + destruct (H2 Hf) as (_ & -> & Hl).
      apply orb_false_elim in Ec. destruct Ec as (-> & Elen). apply negb_false_iff, Nat.eqb_eq in Elen.
      split; [reflexivity|]. split; [reflexivity|]. intros m [<-|Hm]; [exact Elen|apply Hl, Hm].
Qed.

Lemma dom_iter_spec : forall fuel d d', I d -> dom_iter fuel pg nns d = Some d' ->
  I d' /\ forall n, In n nns -> length (newdom d' n) = length (dget d' n).
Proof.
  induction fuel as [|fuel IH]; intros d d' HI H; cbn [dom_iter] in H; [discriminate|].
  destruct (dom_pass pg nns d false) as [d1 ch] eqn:Ep.
  apply dom_pass_spec in Ep; [|apply incl_refl|exact HI]. destruct Ep as (H1 & H2).
  destruct ch; [eapply IH; eassumption|]. injection H as <-. destruct (H2 eq_refl) as (_ & -> & Hl). auto.
Qed.
End Sweep.

Definition holds_dominators (d : dmap) : Prop :=
  forall n x, In n nodes -> In x nodes -> dominates pg start x n -> In x (dget d n).

Lemma holds_dominators_step d n : In n nns -> holds_dominators d -> holds_dominators (dput d n (newdom d n)).
Proof.
  intros Hn HI m x Hm Hx Hd. rewrite dget_dput. destruct (Nat.eqb_spec m n) as [->|Hne]; [|apply HI; assumption].
  apply In_newdom; [exact Hn|]. destruct (Nat.eq_dec x n) as [->|Hxn]; [left; reflexivity|right].
  intros q Hq. apply HI; [apply (graph_ok_spec n Hn), Hq|exact Hx|eapply dominates_pred; eassumption].
Qed.

Lemma d_init_holds_dominators : holds_dominators (d_init start nns).
Proof.
  intros n x Hn Hx Hd. rewrite d_init_get. destruct (nmem n nns) eqn:E; [exact Hx|].
  apply In_nadd in Hn. destruct Hn as [->|Hn]; [|apply nmem_In in Hn; congruence].
  rewrite Nat.eqb_refl. apply (Hd [start]). constructor.
Qed.

Theorem dom_complete fuel d :
  dom_iter fuel pg nns (d_init start nns) = Some d ->
  forall n x, In n nodes -> In x nodes -> dominates pg start x n -> In x (dget d n).
Proof. intros H. exact (proj1 (dom_iter_spec holds_dominators holds_dominators_step fuel _ d d_init_holds_dominators H)). Qed.

Section Fixed.
Hypothesis Hnd : NoDup nns.
Hypothesis Hstart : ~ In start nns.

Record dom_inv (d : dmap) : Prop := {
  di_nd : forall k, NoDup (dget d k);
  di_pre : forall n, In n nns -> incl (newdom d n) (dget d n);
  di_start : dget d start = [start]
}.

Lemma newdom_nd d n : (forall k, NoDup (dget d k)) -> NoDup (newdom d n).
Proof.
  intros H. unfold newdom. destruct (dget pg n) as [|p ps]; [repeat constructor; intros []|].
  apply NoDup_nadd, fold_left_inv; [|apply H]. intros a q _. apply NoDup_filter.
Qed.

Lemma newdom_mono d d' n : In n nns -> (forall k, incl (dget d' k) (dget d k)) -> incl (newdom d' n) (newdom d n).
Proof.
  intros Hn Hle x Hx. apply (In_newdom d' n x Hn) in Hx. apply (In_newdom d n x Hn).
  destruct Hx as [->|H]; [left; reflexivity|right]. intros q Hq. apply Hle, H, Hq.
Qed.

Lemma dom_inv_step d n : In n nns -> dom_inv d -> dom_inv (dput d n (newdom d n)).
Proof.
  intros Hn [H1 H2 H3].
  assert (Hle : forall k, incl (dget (dput d n (newdom d n)) k) (dget d k)).
  { intros k. rewrite dget_dput. destruct (Nat.eqb_spec k n) as [->|]; [apply H2, Hn|apply incl_refl]. }
  constructor.
  - intros k. rewrite dget_dput. destruct (Nat.eqb k n); [apply newdom_nd, H1|apply H1].
  - intros m Hm. eapply incl_tran; [apply newdom_mono; [exact Hm|exact Hle]|].
    rewrite dget_dput. destruct (Nat.eqb_spec m n) as [->|]; [apply incl_refl|apply H2, Hm].
  - rewrite dget_dput. destruct (Nat.eqb_spec start n) as [->|]; [contradiction|exact H3].
Qed.

Lemma d_init_dom_inv : dom_inv (d_init start nns).
Proof.
  constructor.
  - intros k. rewrite d_init_get. destruct (nmem k nns); [apply NoDup_nadd, Hnd|].
    destruct (Nat.eqb k start); repeat constructor. intros [].
  - intros n Hn x Hx. apply nmem_In in Hn as Hn'. rewrite d_init_get, Hn'.
    apply (In_newdom _ n x Hn) in Hx. destruct Hx as [->|Hx]; [apply In_nadd; right; exact Hn|].
    destruct (graph_ok_spec n Hn) as (Hp & _). destruct (dget pg n) as [|p ps]; [contradiction|].
    apply (d_init_incl p), Hx. left. reflexivity.
  - rewrite d_init_get, Nat.eqb_refl. destruct (nmem start nns) eqn:E; [apply nmem_In in E; contradiction|reflexivity].
Qed.

Theorem dom_fixed_holds fuel d :
  (forall k, In k (map fst pg) -> In k nns) ->
  dom_iter fuel pg nns (d_init start nns) = Some d ->
  dom_fixed pg start d = true.
Proof.
  intros Hkeys H. destruct (dom_iter_spec dom_inv dom_inv_step fuel _ d d_init_dom_inv H) as ([H1 H2 H3] & Hl).
  apply dom_fixed_spec. split; [exact H3|]. intros n Hn x Hx. apply Hkeys in Hn.
  apply (In_newdom d n x Hn). revert x Hx.
  apply NoDup_length_incl; [apply newdom_nd, H1|rewrite Hl by exact Hn; apply le_n|apply H2, Hn].
Qed.
End Fixed.

End Iter.

Theorem dominators_exact pg start nns fuel d :
  graph_ok pg start nns = true ->
  dom_iter fuel pg nns (d_init start nns) = Some d ->
  dom_fixed pg start d = true ->
  forall n x, In n (nadd start nns) -> In x (nadd start nns) ->
    (In x (dget d n) <-> dominates pg start x n).
Proof.
  intros Hg Hi Hf n x Hn Hx. split.
  - intros Hin l Hl. eapply dom_sound; eassumption.
  - intros Hd. eapply dom_complete; eassumption.
Qed.

Theorem dominators_exact_any pg start nns fuel d :
  graph_ok pg start nns = true -> NoDup nns -> ~ In start nns ->
  (forall k, In k (map fst pg) -> In k nns) ->
  dom_iter fuel pg nns (d_init start nns) = Some d ->
  forall n x, In n (nadd start nns) -> In x (nadd start nns) ->
    (In x (dget d n) <-> dominates pg start x n).
Proof.
  intros Hg Hnd Hs Hk Hi. eapply dominators_exact; [exact Hg|exact Hi|].
  eapply dom_fixed_holds; eassumption.
Qed.

(* C15: the dominator sets do not depend on the order in which RecoverySetGenerator::run iterates over
   its hash set of nodes (what a recovery set holds is determined by them: RecoverySpec.calc_recovery_spec) *)
Theorem dominators_order_independent pg start nns1 nns2 fuel1 fuel2 d1 d2 :
  (forall k, In k nns1 <-> In k nns2) ->
  graph_ok pg start nns1 = true -> graph_ok pg start nns2 = true ->
  dom_iter fuel1 pg nns1 (d_init start nns1) = Some d1 ->
  dom_iter fuel2 pg nns2 (d_init start nns2) = Some d2 ->
  dom_fixed pg start d1 = true -> dom_fixed pg start d2 = true ->
  forall n x, In n (nadd start nns1) -> In x (nadd start nns1) ->
    (In x (dget d1 n) <-> In x (dget d2 n)).
Proof.
  intros Hsame G1 G2 I1 I2 F1 F2 n x Hn Hx.
  rewrite (dominators_exact pg start nns1 fuel1 d1 G1 I1 F1 n x Hn Hx).
  symmetry. apply (dominators_exact pg start nns2 fuel2 d2 G2 I2 F2); rewrite In_nadd in *; rewrite <- Hsame; assumption.
Qed.
