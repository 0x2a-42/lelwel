(* Refinement: every *valid* builder operation (ghost step defined) steps the
   concrete CstData model without panic to a state that is again the layout of
   the abstract builder state.  Unbounded over histories. *)
From Coq Require Import List Arith Bool.
From LV Require Import Cst Tree ABuild ListLemmas.
Import ListNotations.

Lemma flatten_length : forall t, length (flatten t) = tsize t.
Proof.
  fix IH 1. intros [k cs|t i]; [|reflexivity]. cbn [flatten tsize length]. f_equal.
  induction cs as [|c cs IHcs]; cbn; [reflexivity|]. rewrite app_length, IH, IHcs. reflexivity.
Qed.

Lemma fflatten_length f : length (fflatten f) = fsize f.
Proof.
  unfold fflatten, fsize. induction f as [|x r IH]; cbn; [reflexivity|].
  rewrite app_length, flatten_length, IH. reflexivity.
Qed.

Lemma fflatten_app f1 f2 : fflatten (f1 ++ f2) = fflatten f1 ++ fflatten f2.
Proof. apply flat_map_app. Qed.

Lemma fsize_app f1 f2 : fsize (f1 ++ f2) = fsize f1 + fsize f2.
Proof. unfold fsize. rewrite map_app. apply list_sum_app. Qed.

Lemma ocells_length f : length (ocells f) = fsize f.
Proof. unfold ocells. rewrite map_length. apply fflatten_length. Qed.

Lemma ocells_app f1 f2 : ocells (f1 ++ f2) = ocells f1 ++ ocells f2.
Proof. unfold ocells. rewrite fflatten_app. apply map_app. Qed.

Lemma ocells_node k top : ocells [TNode k top] = Some (NRule k (fsize top)) :: ocells top.
Proof. unfold ocells, fflatten. cbn. rewrite app_nil_r. reflexivity. Qed.

Lemma tleaves_app a b : tleaves (a ++ b) = tleaves a ++ tleaves b.
Proof. apply map_app. Qed.

Lemma fsize_tleaves tr : fsize (tleaves tr) = length tr.
Proof. induction tr as [|x r IH]; [reflexivity|]. cbn. f_equal. exact IH. Qed.

Definition cell_match (n : node) (o : option node) : Prop :=
  match o with
  | Some x => n = x
  | None => exists k e, n = NRule k e
  end.

Definition matches (l : list node) (lay : list (option node)) : Prop := Forall2 cell_match l lay.

Definition cell_compat (o0 o : option node) : Prop :=
  match o0 with
  | Some x => o = Some x
  | None => o = None \/ exists k e, o = Some (NRule k e)
  end.

(* [lay0] (a snapshot's layout) is still present as a prefix of [lay] *)
Definition compat (lay0 lay : list (option node)) : Prop :=
  exists pre rest, lay = pre ++ rest /\ Forall2 cell_compat lay0 pre.

Fixpoint count_tok (lay : list (option node)) : nat :=
  match lay with
  | [] => 0
  | Some (NTok _ _) :: r => S (count_tok r)
  | _ :: r => count_tok r
  end.

Definition wf_abs (a : abs) : Prop :=
  (0 < lag a -> exists outer, stack a = [] :: outer) /\ lag a <= base a.

Definition snap_ok1 (s : snap) : Prop :=
  let a0 := sn_abs s in
  let tm := sn_mark s in
  tm_nodes tm = length (layout a0)
  /\ tm_nsl tm + length (trail a0) + lag a0 = tm_nodes tm
  /\ wf_abs a0
  /\ tm_tcount tm = count_tok (layout a0).

Fixpoint snaps_ok (lay : list (option node)) (sn : list snap) : Prop :=
  match sn with
  | [] => True
  | s :: r => snap_ok1 s /\ compat (layout (sn_abs s)) lay /\ snaps_ok (layout (sn_abs s)) r
  end.

Record Inv (c : cst) (sn : list tmark) (g : ghost) : Prop := mkInv {
  inv_match : matches (nodes c) (layout (g_abs g));
  inv_nsl : nsl c + length (trail (g_abs g)) + lag (g_abs g) = length (nodes c);
  inv_wf : wf_abs (g_abs g);
  inv_tc : tcount c = count_tok (layout (g_abs g));
  inv_snaps : snaps_ok (layout (g_abs g)) (g_snaps g);
  inv_sn : map sn_mark (g_snaps g) = sn;
}.

Lemma count_tok_app a b : count_tok (a ++ b) = count_tok a + count_tok b.
Proof.
  induction a as [|x a IH]; cbn; [reflexivity|].
  destruct x as [[k e|t i]|]; cbn; rewrite IH; reflexivity.
Qed.

Lemma wf_abs_lag0 a : lag a = 0 -> wf_abs a.
Proof. intros H. unfold wf_abs. rewrite H. split; [intros H0; inversion H0|apply Nat.le_0_l]. Qed.

Lemma cell_compat_trans a b c : cell_compat a b -> cell_compat b c -> cell_compat a c.
Proof.
  destruct a as [x|]; cbn; [intros ->; trivial|].
  intros [->|(k & e & ->)]; cbn; eauto.
Qed.

Lemma cell_match_compat n o o0 : cell_match n o -> cell_compat o0 o -> cell_match n o0.
Proof.
  destruct o0 as [x|]; cbn; [intros H ->; exact H|].
  intros H [->|(k & e & ->)]; cbn in H; [exact H|]. subst n. eauto.
Qed.

Lemma Forall2_compat_refl lay : Forall2 cell_compat lay lay.
Proof. induction lay as [|[x|] lay IH]; constructor; cbn; auto. Qed.

Lemma compat_refl lay : compat lay lay.
Proof. exists lay, []. split; [symmetry; apply app_nil_r|apply Forall2_compat_refl]. Qed.

Lemma compat_trans l0 l1 l2 : compat l0 l1 -> compat l1 l2 -> compat l0 l2.
Proof.
  intros (p1 & r1 & -> & H1) (p2 & r2 & -> & H2).
  apply Forall2_app_inv_l in H2. destruct H2 as (a & b & Ha & Hb & ->).
  exists a, (b ++ r2). split; [symmetry; apply app_assoc|].
  exact (Forall2_chain _ _ _ cell_compat_trans _ _ _ H1 Ha).
Qed.

Lemma compat_app lay x : compat lay (lay ++ x).
Proof. exists lay, x. split; [reflexivity|apply Forall2_compat_refl]. Qed.

Lemma compat_fill L1 L2 k e : compat (L1 ++ None :: L2) (L1 ++ Some (NRule k e) :: L2).
Proof.
  exists (L1 ++ Some (NRule k e) :: L2), []. split; [symmetry; apply app_nil_r|].
  apply Forall2_app; [|constructor; [right; eauto|]]; apply Forall2_compat_refl.
Qed.

Lemma compat_firstn lay0 lay : compat lay0 lay <-> Forall2 cell_compat lay0 (firstn (length lay0) lay).
Proof.
  split.
  - intros (p & r & -> & H). rewrite (Forall2_length _ _ _ H), firstn_app_exact. exact H.
  - intros H. exists (firstn (length lay0) lay), (skipn (length lay0) lay).
    split; [symmetry; apply firstn_skipn|exact H].
Qed.

Lemma compat_insert lay0 L1 L2 x :
  compat lay0 (L1 ++ L2) -> length lay0 <= length L1 -> compat lay0 (L1 ++ x :: L2).
Proof.
  intros H Hl. apply compat_firstn. apply compat_firstn in H.
  rewrite firstn_app, (proj2 (Nat.sub_0_le _ _) Hl) in *. exact H.
Qed.

Lemma compat_matches lay0 lay l :
  compat lay0 lay -> matches l lay -> matches (firstn (length lay0) l) lay0.
Proof.
  intros (p & r & -> & H) Hm. destruct (Forall2_split_r _ _ _ _ Hm) as (l1 & l2 & -> & H1 & _ & Hl).
  rewrite (Forall2_length _ _ _ H), <- Hl, firstn_app_exact.
  exact (Forall2_chain _ _ _ cell_match_compat _ _ _ H1 (Forall2_flip _ _ _ H)).
Qed.

Lemma snaps_ok_weaken lay1 lay2 sn : compat lay1 lay2 -> snaps_ok lay1 sn -> snaps_ok lay2 sn.
Proof.
  destruct sn as [|s r]; cbn; [auto|].
  intros Hc (H1 & H2 & H3). eauto using compat_trans.
Qed.

Lemma snaps_ok_insert L1 L2 x sn :
  snaps_ok (L1 ++ L2) sn -> snaps_allow sn (length L1) = true -> snaps_ok (L1 ++ x :: L2) sn.
Proof.
  destruct sn as [|s r]; cbn; [auto|]. intros (H1 & H2 & H3) Ha.
  apply andb_prop in Ha. destruct Ha as [Ha _]. apply Nat.leb_le in Ha. rewrite (proj1 H1) in Ha.
  auto using compat_insert.
Qed.

Lemma snaps_chain snaps : forall lay i s,
  snaps_ok lay snaps -> nth_error snaps i = Some s ->
  compat (layout (sn_abs s)) lay /\ snaps_ok (layout (sn_abs s)) (skipn i snaps) /\ snap_ok1 s.
Proof.
  induction snaps as [|s0 r IH]; intros lay [|i] s Hs En; try discriminate; destruct Hs as (H1 & H2 & H3).
  - injection En as <-. cbn. auto using compat_refl.
  - destruct (IH _ _ _ H3 En) as (Hc & Hr). eauto using compat_trans.
Qed.

Lemma frames_cells_cons f outer : frames_cells (f :: outer) = frames_cells outer ++ None :: ocells f.
Proof. reflexivity. Qed.

Lemma frames_cells_top_app f g outer : frames_cells ((f ++ g) :: outer) = frames_cells (f :: outer) ++ ocells g.
Proof. cbn [frames_cells]. rewrite ocells_app, <- app_assoc. reflexivity. Qed.

Lemma frames_cells_length f outer :
  length (frames_cells (f :: outer)) = fsize f + S (length (frames_cells outer)).
Proof. cbn [frames_cells]. rewrite app_length. cbn [length]. rewrite ocells_length, Nat.add_comm. apply Nat.add_succ_comm. Qed.

Lemma layout_top top outer tr lg :
  layout (mkAbs (top :: outer) tr lg) = frames_cells outer ++ None :: ocells top ++ ocells (tleaves tr).
Proof. unfold layout. cbn [stack trail]. rewrite frames_cells_cons, <- app_assoc. reflexivity. Qed.

Lemma layout_top_app f g outer tr lg :
  layout (mkAbs ((f ++ g) :: outer) tr lg) = frames_cells (f :: outer) ++ ocells g ++ ocells (tleaves tr).
Proof. unfold layout. cbn [stack trail]. rewrite frames_cells_top_app. symmetry. apply app_assoc. Qed.

Lemma frames_cells_length_ge st : length (frames_cells st) >= length st.
Proof.
  induction st as [|f r IH]; [constructor|]. rewrite frames_cells_length, Nat.add_succ_r.
  apply le_n_S, (Nat.le_trans _ _ _ IH), Nat.le_add_l.
Qed.

Lemma layout_nil_stack tr lg : layout (mkAbs [] tr lg) = ocells (tleaves tr).
Proof. reflexivity. Qed.

Lemma a_open_spec a a' :
  a_open a = Some a' -> layout a' = layout a ++ [None] /\ trail a' = [] /\ lag a' = 0.
Proof.
  destruct a as [[|top outer] tr lg]; unfold a_open, layout, flush_into; cbn [stack trail].
  - destruct tr; [|discriminate]. intros [= <-]. auto.
  - intros [= <-]. cbn [stack trail lag]. rewrite frames_cells_cons, frames_cells_top_app, app_nil_r. auto.
Qed.

Lemma a_advance_spec a t i sk a' :
  a_advance a t i sk = Some a' ->
  layout a' = layout a ++ [Some (NTok t i)]
  /\ trail a' = (if sk then trail a ++ [(t, i)] else [])
  /\ lag a' = (if sk then lag a else 0)
  /\ (sk = true -> stack a' = stack a).
Proof.
  destruct a as [[|top outer] tr lg]; [discriminate|]. unfold a_advance, layout, flush_into; cbn [stack trail lag].
  destruct sk; intros [= <-]; cbn [stack trail lag]; repeat split; try discriminate.
  - rewrite tleaves_app, ocells_app. apply app_assoc.
  - rewrite !frames_cells_top_app. apply app_nil_r.
Qed.

Lemma a_close_spec a m k a' :
  a_close a m k = Some a' ->
  exists top outer L1 L2,
    stack a = top :: outer
    /\ layout a = L1 ++ None :: L2 /\ length L1 = m /\ m = base a
    /\ layout a' = L1 ++ Some (NRule k (fsize top)) :: L2
    /\ length L2 = fsize top + length (trail a)
    /\ trail a' = trail a /\ lag a' = 0.
Proof.
  destruct a as [[|top [|next outer]] tr lg]; try discriminate. unfold a_close, base. cbn [stack trail lag].
  destruct (Nat.eqb_spec m (length (frames_cells (next :: outer)))) as [->|]; [|discriminate].
  intros [= <-].
  exists top, (next :: outer), (frames_cells (next :: outer)), (ocells top ++ ocells (tleaves tr)).
  cbn [stack trail lag]. repeat split.
  - apply layout_top.
  - rewrite layout_top_app, ocells_node. reflexivity.
  - rewrite app_length, !ocells_length, fsize_tleaves. reflexivity.
Qed.

Lemma split_forest_spec f : forall off k1 k2,
  split_forest f off = Some (k1, k2) -> f = k1 ++ k2 /\ fsize k1 = off.
Proof.
  induction f as [|t r IH]; intros [|n] k1 k2 H; cbn [split_forest] in H; try discriminate.
  1, 2: injection H as <- <-; auto.
  destruct (Nat.leb_spec (tsize t) (S n)) as [Hle|]; [|discriminate].
  destruct (split_forest r (S n - tsize t)) as [[p s]|] eqn:E; [|discriminate].
  injection H as <- <-. destruct (IH _ _ _ E) as [-> Hs]. split; [reflexivity|].
  change (fsize (t :: p)) with (tsize t + fsize p). rewrite Hs, Nat.add_comm. apply Nat.sub_add, Hle.
Qed.

Lemma a_open_before_spec a p a' :
  wf_abs a -> a_open_before a p = Some a' ->
  exists L1 L2,
    layout a = L1 ++ L2 /\ length L1 = p /\ layout a' = L1 ++ None :: L2
    /\ length (trail a') + lag a' = length (trail a) + lag a
    /\ wf_abs a'.
Proof.
  destruct a as [[|top outer] tr lg]; [discriminate|].
  unfold a_open_before, wf_abs, base, flush_into. cbn [stack trail lag]. intros [Hlag Hbase].
  destruct (Nat.leb_spec p (length (frames_cells outer))) as [|Hp]; [discriminate|].
  (* the mark lies [off] cells behind the placeholder of the top frame *)
  destruct (Nat.le_exists_sub _ _ Hp) as (off & -> & _).
  rewrite <- Nat.sub_add_distr, Nat.add_1_r, Nat.add_sub.
  destruct (split_forest top off) as [[k1 k2]|] eqn:E.
  - (* it falls between two children of the top frame *)
    intros [= <-]. cbn [stack trail lag]. destruct (split_forest_spec _ _ _ _ E) as [-> <-].
    exists (frames_cells (k1 :: outer)), (ocells k2 ++ ocells (tleaves tr)).
    rewrite frames_cells_length. repeat split.
    + apply layout_top_app.
    + apply layout_top.
    + intros Hl. destruct (Hlag Hl) as (o & [= H _]). apply app_eq_nil in H. destruct H as [-> ->]. eauto.
    + apply le_S in Hbase. apply (Nat.le_trans _ _ _ Hbase), Nat.le_add_l.
  - (* it falls inside the trail: the [j] leaves in front of it are flushed into the top frame *)
    destruct (Nat.ltb_spec (fsize top) off) as [Hlt|]; [|discriminate].
    destruct (Nat.le_exists_sub _ _ (Nat.lt_le_incl _ _ Hlt)) as (j & -> & _). rewrite Nat.add_sub.
    destruct (Nat.leb_spec j (length tr)) as [Hj|]; [|discriminate].
    intros [= <-]. cbn [stack trail lag].
    exists (frames_cells ((top ++ tleaves (firstn j tr)) :: outer)), (ocells (tleaves (skipn j tr))).
    rewrite !frames_cells_length, fsize_app, fsize_tleaves, (firstn_length_le _ Hj), (Nat.add_comm j). repeat split.
    + rewrite frames_cells_top_app, <- app_assoc, <- ocells_app, <- tleaves_app, firstn_skipn. reflexivity.
    + apply layout_top.
    + rewrite skipn_length, (Nat.add_comm lg), Nat.add_assoc, (Nat.sub_add _ _ Hj). reflexivity.
    + eauto.
    + rewrite Nat.add_comm. apply Nat.add_le_mono; [apply Nat.le_add_l|apply le_S, Hbase].
Qed.

(* [close] under the invariant: the cell at [m] is followed by [e] cells of the closed node and
   [tr] trailing skipped cells; [nsl] (the code's non_skip_len) lags by [lg] only when the node is
   empty.  Both branches of the implementation then store offset [e], and the repair adds exactly
   the lag. *)
Lemma c_close_at c m k e tr lg :
  nsl c + tr + lg = length (nodes c) -> length (nodes c) = m + S (e + tr) ->
  lg <= m -> (0 < lg -> e = 0) ->
  c_close c m k = Ok (mkCst (set_nth m (NRule k e) (nodes c)) (tcount c) (nsl c + lg)).
Proof.
  intros Hn Hl Hb He. unfold c_close.
  rewrite (proj2 (Nat.leb_gt _ _)) by (rewrite Hl; apply Nat.lt_add_pos_r, Nat.lt_0_succ).
  rewrite Hl, Nat.add_shuffle0, Nat.add_succ_r, Nat.add_assoc, <- Nat.add_succ_l in Hn.
  apply Nat.add_cancel_r in Hn. destruct lg as [|d].
  - rewrite Nat.add_0_r in *.
    rewrite Hn, (proj2 (Nat.ltb_ge _ _) (Nat.le_add_r m e)), (Nat.add_comm m e), Nat.add_sub. reflexivity.
  - rewrite (He (Nat.lt_0_succ d)), Nat.add_0_r in *. destruct (nsl c) as [|len]; injection Hn as <-.
    + destruct (Nat.nle_succ_diag_l _ Hb).
    + rewrite (proj2 (Nat.ltb_lt _ _) (Nat.lt_add_pos_r _ _ (Nat.lt_0_succ d))), (Nat.add_comm len), Nat.add_sub.
      reflexivity.
Qed.

Lemma inv_push c sn g a' x o n' :
  Inv c sn g -> layout a' = layout (g_abs g) ++ [o] -> cell_match x o -> wf_abs a' ->
  n' + length (trail a') + lag a' = S (length (nodes c)) ->
  Inv (mkCst (nodes c ++ [x]) (count_tok [o] + tcount c) n') sn (mkGhost a' (g_snaps g)).
Proof.
  intros [Hm _ _ Htc Hs Hsn] Hl Hx Hwf Hn.
  constructor; cbn [nodes nsl tcount g_abs g_snaps]; rewrite ?Hl; trivial.
  - apply Forall2_app; [assumption|]. repeat constructor. exact Hx.
  - rewrite last_length. exact Hn.
  - rewrite count_tok_app, Htc. apply Nat.add_comm.
  - eapply snaps_ok_weaken; [apply compat_app|eassumption].
Qed.

Theorem step_refines c sn g o g' :
  Inv c sn g -> g_step g c o = Some g' ->
  exists c' sn', c_step c sn o = Ok (c', sn') /\ Inv c' sn' g'.
Proof.
  intros HI Hg. destruct g as [a snaps]. pose proof HI as [Hm Hn Hwf Htc Hs Hsn]. cbn [g_abs g_snaps] in *.
  pose proof (Forall2_length _ _ _ Hm) as Hlen.
  destruct o as [|m k|t sk|p| |i|]; cbn [g_step g_abs g_snaps] in Hg.
  - (* open *)
    destruct (a_open a) as [a'|] eqn:E; [|discriminate]. injection Hg as <-.
    destruct (a_open_spec _ _ E) as (Hl & Htr & Hlg).
    eexists _, _. split; [reflexivity|].
    apply (inv_push _ _ _ a' (NRule kError 0) None _ HI Hl).
    + cbn. eauto.
    + apply wf_abs_lag0, Hlg.
    + rewrite Htr, Hlg, Nat.add_0_r. apply Nat.add_0_r.
  - (* close *)
    destruct (a_close a m k) as [a'|] eqn:E; [|discriminate]. injection Hg as <-.
    destruct (a_close_spec _ _ _ _ E) as (top & outer & L1 & L2 & Hst & Hl & HL1 & Hmb & Hl' & HL2 & Htr & Hlg).
    rewrite Hl in *. rewrite app_length, HL1 in Hlen. cbn [length] in Hlen. rewrite HL2 in Hlen.
    cbn [c_step]. rewrite (c_close_at c m k (fsize top) _ _ Hn Hlen); [|rewrite Hmb; apply Hwf|].
    2:{ intros H0. destruct (proj1 Hwf H0) as (o' & Ho'). rewrite Hst in Ho'. injection Ho' as -> _. reflexivity. }
    eexists _, _. split; [reflexivity|].
    constructor; cbn [nodes nsl tcount g_abs g_snaps]; rewrite ?Hl'; trivial.
    + rewrite <- HL1. eapply Forall2_set_nth_r; [eassumption|reflexivity].
    + rewrite Htr, Hlg, Nat.add_0_r, Nat.add_shuffle0, set_nth_length; [exact Hn|].
      rewrite Hlen. apply Nat.lt_add_pos_r, Nat.lt_0_succ.
    + apply wf_abs_lag0, Hlg.
    + rewrite Htc, !count_tok_app. reflexivity.
    + eapply snaps_ok_weaken; [apply compat_fill|eassumption].
  - (* advance *)
    destruct (a_advance a t (tcount c) sk) as [a'|] eqn:E; [|discriminate]. injection Hg as <-.
    destruct (a_advance_spec _ _ _ _ _ E) as (Hl & Htr & Hlg & Hst).
    eexists _, _. split; [reflexivity|].
    apply (inv_push _ _ _ a' (NTok t (tcount c)) (Some (NTok t (tcount c))) _ HI Hl).
    + reflexivity.
    + destruct sk; [|apply wf_abs_lag0, Hlg]. unfold wf_abs, base in *. rewrite Hlg, Hst; trivial.
    + rewrite Htr, Hlg. destruct sk.
      * rewrite last_length, Nat.add_succ_r. exact (f_equal S Hn).
      * rewrite Nat.add_0_r. apply Nat.add_0_r.
  - (* open_before *)
    destruct (snaps_allow snaps p) eqn:Ea; [|discriminate].
    destruct (a_open_before a p) as [a'|] eqn:E; [|discriminate]. injection Hg as <-.
    destruct (a_open_before_spec _ _ _ Hwf E) as (L1 & L2 & Hl & <- & Hl' & Htl & Hwf').
    rewrite Hl in *. rewrite app_length in Hlen.
    assert (Hle : length L1 <= length (nodes c)) by (rewrite Hlen; apply Nat.le_add_r).
    unfold c_step, c_open_before. rewrite (proj2 (Nat.ltb_ge _ _) Hle).
    eexists _, _. split; [reflexivity|].
    constructor; cbn [nodes nsl tcount g_abs g_snaps]; rewrite ?Hl'; trivial.
    + apply Forall2_insert_at_r; [assumption|]. cbn. eauto.
    + rewrite (insert_at_length _ _ _ Hle), <- Nat.add_assoc, Htl, Nat.add_assoc. exact (f_equal S Hn).
    + rewrite Htc, !count_tok_app. reflexivity.
    + apply snaps_ok_insert; assumption.
  - (* snap *)
    injection Hg as <-. eexists _, _. split; [reflexivity|].
    constructor; cbn [nodes nsl tcount g_abs g_snaps map sn_mark]; try congruence; trivial.
    exact (conj (conj Hlen (conj Hn (conj Hwf Htc))) (conj (compat_refl _) Hs)).
  - (* restore *)
    destruct (nth_error snaps i) as [s|] eqn:En; [|discriminate]. injection Hg as <-.
    unfold c_step. rewrite <- Hsn, nth_error_map, En. cbn [option_map].
    eexists _, _. split; [reflexivity|].
    destruct (snaps_chain _ _ _ _ Hs En) as (Hc & Hr & Hn1 & Hn2 & Hwf1 & Htc1).
    pose proof (compat_matches _ _ _ Hc Hm) as Hm1.
    constructor; cbn [nodes nsl tcount g_abs g_snaps c_truncate]; trivial.
    + rewrite Hn1. exact Hm1.
    + rewrite Hn1, (Forall2_length _ _ _ Hm1), <- Hn1. exact Hn2.
    + symmetry. apply skipn_map.
  - (* release *)
    destruct snaps as [|s r]; [discriminate|]. injection Hg as <-.
    eexists _, _. split; [reflexivity|].
    constructor; cbn [nodes nsl tcount g_abs g_snaps]; trivial.
    + destruct Hs as (H1 & H2 & H3). eapply snaps_ok_weaken; eassumption.
    + rewrite <- Hsn. reflexivity.
Qed.

Lemma inv_init : Inv empty_cst [] ghost_empty.
Proof. constructor; try reflexivity; [apply Forall2_nil|apply wf_abs_lag0; reflexivity]. Qed.

Lemma run_history_none h : forall c sn c' sn' g', run_history h c sn None <> Ok (c', sn', Some g').
Proof.
  induction h as [|o h IH]; intros c sn c' sn' g'; cbn; [discriminate|].
  destruct (c_step c sn o) as [[c1 sn1]|w]; [apply IH|discriminate].
Qed.

Theorem history_refines h : forall c sn g r,
  Inv c sn g ->
  run_history h c sn (Some g) = r ->
  match r with
  | Ok (c', sn', Some g') => Inv c' sn' g'
  | Ok (_, _, None) => True          (* some operation was invalid: nothing is claimed *)
  | Panic _ => exists pre o post c1 sn1 g1,
      (* a panic can only happen at or after an invalid operation *)
      h = pre ++ o :: post /\ run_history pre c sn (Some g) = Ok (c1, sn1, Some g1) /\ g_step g1 c1 o = None
  end.
Proof.
  induction h as [|o h IH]; intros c sn g r HI Hr; cbn [run_history] in Hr.
  - subst r. assumption.
  - destruct (g_step g c o) as [g'|] eqn:Eg.
    + destruct (step_refines _ _ _ _ _ HI Eg) as (c' & sn' & Hc & HI').
      rewrite Hc in Hr. specialize (IH _ _ _ _ HI' Hr).
      destruct r as [[[c2 sn2] [g2|]]|w]; try assumption.
      destruct IH as (pre & o' & post & c1 & sn1 & g1 & -> & Hrun & Hbad).
      exists (o :: pre), o', post, c1, sn1, g1. split; [reflexivity|]. split; [|assumption].
      cbn [run_history]. rewrite Hc, Eg. assumption.
    + destruct r as [[[c2 sn2] [g2|]]|w]; [|exact I|exists [], o, h, c, sn, g; auto].
      destruct (c_step c sn o) as [[c' sn']|w]; [|discriminate]. destruct (run_history_none _ _ _ _ _ _ Hr).
Qed.

Lemma matches_some l l' : matches l (map Some l') -> l = l'.
Proof.
  revert l. induction l' as [|z l' IH]; intros l H; inversion H; subst; [reflexivity|].
  f_equal; [assumption|auto].
Qed.

(* closing the root of a valid history yields exactly the pre-order layout of the reference tree *)
Theorem close_root_refines c sn g m k t :
  Inv c sn g -> a_close_root (g_abs g) m k = Some t ->
  exists c', c_close_root c m k = Ok c' /\ nodes c' = flatten t.
Proof.
  intros [Hm _ _ _ _ _]. destruct g as [[st tr lg] snaps]. unfold a_close_root. cbn [g_abs stack trail] in *.
  destruct st as [|top [|? ?]]; try discriminate.
  destruct (Nat.eqb_spec m 0) as [->|]; [|discriminate]. intros [= <-].
  rewrite layout_top, <- ocells_app in Hm. inversion Hm as [|x y n2 L2 Hx Hm2 Hxe]; subst.
  apply matches_some in Hm2. subst n2.
  unfold c_close_root. rewrite <- Hxe. eexists. split; [reflexivity|].
  cbn. rewrite fflatten_length, !Nat.sub_0_r. reflexivity.
Qed.

Lemma firstn_fflatten cs r : firstn (fsize cs) (fflatten cs ++ r) = fflatten cs.
Proof. rewrite <- fflatten_length. apply firstn_app_exact. Qed.

Lemma skipn_fflatten cs r : skipn (fsize cs) (fflatten cs ++ r) = r.
Proof. rewrite <- fflatten_length. apply skipn_app_exact. Qed.

Lemma decode_forest_flatten : forall fuel f,
  fsize f <= fuel -> decode_forest fuel (fflatten f) = Some f.
Proof.
  induction fuel as [|fuel IH]; intros [|[k cs|tk i] r] Hlen; try reflexivity; try (inversion Hlen; fail);
    apply le_S_n in Hlen.
  - change (fflatten (TNode k cs :: r)) with (NRule k (fsize cs) :: fflatten cs ++ fflatten r).
    cbn [decode_forest]. rewrite app_length, !fflatten_length, (proj2 (Nat.ltb_ge _ _) (Nat.le_add_r _ _)).
    rewrite firstn_fflatten, skipn_fflatten, !IH; [reflexivity| |].
    + exact (Nat.le_trans _ _ _ (Nat.le_add_l _ _) Hlen).
    + exact (Nat.le_trans _ _ _ (Nat.le_add_r _ _) Hlen).
  - change (fflatten (TLeaf tk i :: r)) with (NTok tk i :: fflatten r).
    cbn [decode_forest]. rewrite IH by exact Hlen. reflexivity.
Qed.

Theorem decode_flatten t : decode (flatten t) = Some t.
Proof.
  unfold decode. rewrite <- (app_nil_r (flatten t)). change (flatten t ++ []) with (fflatten [t]).
  rewrite decode_forest_flatten; [reflexivity|]. rewrite fflatten_length. constructor.
Qed.

Lemma tok_cells_app a b : tok_cells (a ++ b) = tok_cells a ++ tok_cells b.
Proof. induction a as [|[k e|t i] a IH]; cbn; [reflexivity|assumption|]. f_equal. assumption. Qed.

Theorem tok_cells_flatten t : tok_cells (flatten t) = leaves t.
Proof.
  revert t. fix IH 1. intros [k cs|t i]; [|reflexivity]. cbn [flatten tok_cells leaves].
  induction cs as [|c cs IHcs]; cbn; [reflexivity|]. rewrite tok_cells_app, IH, IHcs. reflexivity.
Qed.
