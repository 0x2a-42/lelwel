(* Theorems about the formatter's item generator (Model/Fmt.v), for ALL trees and source texts;
   notes/fmt.md reads each in one line.  First what the statements speak of (content, has_bad, leaves,
   lexed, resolve); then FmtLemmas.Inv for every gen_* function, following the code; then the theorems,
   each read off Inv. *)
From Coq Require Import List Arith Bool Lia.
From LV Require Import Fmt FmtLemmas.
Import ListNotations.

(* a line / doc comment without its last byte: the '\n' the lexer includes *)
Definition tok_content (k : tkind) (txt : list byte) : list byte :=
  match k with
  | TWhitespace => []
  | TLineComment | TDocComment => nonws (removelast txt)
  | _ => nonws txt
  end.

Fixpoint content (t : tree) : list byte :=
  match t with
  | FTok k txt _ => tok_content k txt
  | FRule _ cs => flat_map content cs
  end.

(* the kinds for which gen_node is unreachable!() *)
Definition bad_kind (k : rkind) : bool :=
  match k with RDecl | RPostfix | RRegex => true | _ => false end.

Fixpoint has_bad (t : tree) : bool :=
  match t with
  | FTok _ _ _ => false
  | FRule k cs => bad_kind k || existsb has_bad cs
  end.

Fixpoint leaves (t : tree) : list byte :=
  match t with
  | FTok _ txt _ => txt
  | FRule _ cs => flat_map leaves cs
  end.

(* the token texts have the shape the lexer guarantees: a Whitespace token consists of whitespace
   bytes, a line / doc comment is not empty and ends with a whitespace byte (its '\n') *)
Fixpoint lexed (t : tree) : bool :=
  match t with
  | FTok TWhitespace txt _ => is_nil (nonws txt)
  | FTok TLineComment txt _ | FTok TDocComment txt _ => negb (is_nil txt) && is_ws (last txt 0)
  | FTok _ _ _ => true
  | FRule _ cs => forallb lexed cs
  end.

(* A resolution of the conditions of an item list.  rho answers the k-th condition that is not named
   "multilineAlt".  alpha answers per alternation separator: the j-th multilineAlt condition that has a
   false path (pushed in front of a `|` or `/`) and the j-th multilineAlt condition that has none
   (pushed behind that token) both get alpha j - this is the pairing. *)
Fixpoint resolve (rho alpha : nat -> bool) (k ja jb : nat) (l : list item) : list item :=
  match l with
  | [] => []
  | ICond (CMultilineAlt _) t (e :: e') :: r =>
      (if alpha ja then t else e :: e') ++ resolve rho alpha k (S ja) jb r
  | ICond (CMultilineAlt _) t [] :: r =>
      (if alpha jb then t else []) ++ resolve rho alpha k ja (S jb) r
  | ICond _ t e :: r => (if rho k then t else e) ++ resolve rho alpha (S k) ja jb r
  | x :: r => x :: resolve rho alpha k ja jb r
  end.

Fixpoint tree_ind2 (P : tree -> Prop)
  (Ht : forall k txt s, P (FTok k txt s))
  (Hr : forall k cs, Forall P cs -> P (FRule k cs)) (t : tree) : P t :=
  match t with
  | FTok k txt s => Ht k txt s
  | FRule k cs =>
      Hr k cs ((fix go (l : list tree) : Forall P l :=
                  match l with
                  | [] => Forall_nil P
                  | c :: r => Forall_cons c (tree_ind2 P Ht Hr c) (go r)
                  end) cs)
  end.

Lemma gen_node_rule : forall src prev k cs,
  gen_node src prev (FRule k cs) = gen_rule src prev k (gen_subs src prev cs).
Proof.
  intros src prev k cs. simpl. f_equal. revert prev.
  induction cs as [|c r IH]; intros prev; simpl; [reflexivity|]. f_equal. apply IH.
Qed.

Lemma gen_subs_forall : forall (Q : tree -> list item -> Prop) src cs,
  Forall (fun c => forall prev, Q c (gen_node src prev c)) cs ->
  forall prev, Forall (fun cr => Q (fst cr) (snd cr)) (gen_subs src prev cs).
Proof.
  intros Q src cs H. induction H as [|c r Hc _ IH]; intros prev; simpl; constructor; [apply Hc|apply IH].
Qed.

Lemma gen_subs_fst : forall src cs prev, map fst (gen_subs src prev cs) = cs.
Proof. induction cs as [|c r IH]; intros prev; simpl; [reflexivity|]. f_equal. apply IH. Qed.

Lemma is_tok_inv : forall k t, is_tok k t = true -> exists txt s, t = FTok k txt s.
Proof.
  intros k [k' txt s|k' cs] H; simpl in H; [|discriminate].
  exists txt, s. destruct k, k'; try discriminate; reflexivity.
Qed.

Lemma content_tok_eq : forall k t, is_tok k t = true -> content t = match t with FTok k' txt _ => tok_content k' txt | _ => [] end /\ has_bad t = false.
Proof. intros k t H. destruct (is_tok_inv k t H) as (txt & s & ->). split; reflexivity. Qed.

Definition For (t : tree) (out : list item) : Prop := Inv 0 (content t) (has_bad t) out.

Definition Gen (n : nat) (subs : subs_t) (out : list item) : Prop :=
  Inv n (flat_map content (map fst subs)) (existsb has_bad (map fst subs)) out.

Definition Subs (subs : subs_t) : Prop := Forall (fun cr => For (fst cr) (snd cr)) subs.

Lemma For_ws : forall t g, is_tok TWhitespace t = true -> Glue g -> For t g.
Proof. intros t g H Hg. destruct (is_tok_inv _ t H) as (txt & s & ->). exact Hg. Qed.

Lemma Gen_cons : forall n cr o1 r o2, For (fst cr) o1 -> Gen n r o2 -> Gen n (cr :: r) (o1 ++ o2).
Proof. intros n cr o1 r o2. apply (Inv_app 0). Qed.

Lemma Gen_flat_map : forall f subs,
  (forall cr, For (fst cr) (snd cr) -> For (fst cr) (f cr)) -> Subs subs -> Gen 0 subs (flat_map f subs).
Proof.
  intros f subs Hf H. induction H as [|cr r Hc _ IH]; [apply Glue_nil|].
  apply Gen_cons; [apply Hf, Hc|exact IH].
Qed.

Lemma For_gen_token : forall src k txt s, For (FTok k txt s) (gen_token src k txt s).
Proof.
  intros src k txt s. destruct k; unfold For; cbn [gen_token content tok_content has_bad]; try apply Inv_push_text.
  1, 2: apply Inv_glue_l; [apply Glue_sbc|];
        apply Inv_glue_r; [apply Inv_push_text_chopped|apply Glue_sig; reflexivity].
  - apply Inv_glue_l; [apply Glue_sbc|apply Inv_push_text].
  - apply Glue_nil.
Qed.

Lemma Gen_gen_children : forall subs, Subs subs -> Gen 0 subs (gen_children subs).
Proof. intros subs. apply Gen_flat_map. intros cr H; exact H. Qed.

Lemma Gen_gen_error : forall subs, Subs subs -> Gen 0 subs (gen_error subs).
Proof.
  intros subs. apply Gen_flat_map. intros cr H.
  destruct (is_tok TWhitespace (fst cr)) eqn:E; [exact (For_ws _ _ E Glue_space)|exact H].
Qed.

Lemma Gen_concat_rest : forall subs, Subs subs -> Gen 0 subs (concat_rest subs).
Proof.
  intros subs. apply Gen_flat_map. intros cr H.
  destruct (is_tok TWhitespace (fst cr)) eqn:E; [exact (For_ws _ _ E Glue_nil)|].
  destruct (is_comment (fst cr)); [exact H|].
  apply (Inv_glue_l [ISig SpaceOrNewLine]); [apply Glue_sig; reflexivity|exact H].
Qed.

Lemma Gen_gen_concat : forall subs, Subs subs -> Gen 0 subs (gen_concat subs).
Proof.
  intros subs H. unfold gen_concat.
  apply (Inv_wrap [ISig StartNewLineGroup] [ISig FinishNewLineGroup] 0); [repeat split; repeat constructor|].
  destruct H as [|cr r Hc Hr]; [apply Glue_nil|].
  apply Gen_cons; [exact Hc|apply Gen_concat_rest, Hr].
Qed.

(* gen_paren and gen_rule_decl run the same loop: io / ic recognise the opening and the closing token,
   a / b are the conditions pushed behind the opening and in front of the closing one *)
Definition bracket_loop (io ic : tree -> bool) (a b : item) : nat -> subs_t -> list item :=
  fix loop (open : nat) (subs : subs_t) : list item :=
    match subs with
    | [] => dedent (2 * open)
    | cr :: rest =>
        if io (fst cr) then snd cr ++ indent 2 ++ a :: loop (S open) rest
        else if ic (fst cr) && (0 <? open) then dedent 2 ++ b :: snd cr ++ loop (open - 1) rest
        else snd cr ++ loop open rest
    end.

Lemma paren_loop_bracket :
  paren_loop = bracket_loop (fun t => is_tok TLPar t || is_tok TLBrak t)
                 (fun t => is_tok TRPar t || is_tok TRBrak t) (c_newline false) (c_newline false).
Proof. reflexivity. Qed.

Lemma rule_loop_bracket :
  rule_loop = bracket_loop (is_tok TColon) (is_tok TSemi) c_nl_or_space (c_newline true).
Proof. reflexivity. Qed.

Lemma Gen_bracket_loop : forall io ic a b, Glue [a] -> Glue [b] ->
  forall subs, Subs subs -> forall open, Gen (open * 2) subs (bracket_loop io ic a b open subs).
Proof.
  intros io ic a b Ha Hb subs H. induction H as [|cr r Hc _ IH]; intros open; cbn [bracket_loop].
  - rewrite Nat.mul_comm. apply Inv_dedent.
  - destruct (io (fst cr)).
    + apply Gen_cons; [exact Hc|]. apply Inv_indent.
      apply (Inv_glue_l [a]); [exact Ha|apply (IH (S open))].
    + destruct (ic (fst cr) && (0 <? open)) eqn:E; [|apply Gen_cons; [exact Hc|apply IH]].
      apply andb_true_iff in E. destruct E as [_ E]. destruct open as [|o]; [discriminate E|].
      apply (Inv_app 2 [] false _ (o * 2)); [apply Inv_dedent|].
      apply (Inv_glue_l [b]); [exact Hb|]. cbn [Nat.sub]. rewrite Nat.sub_0_r.
      apply Gen_cons; [exact Hc|apply IH].
Qed.

Lemma Gen_gen_paren : forall subs, Subs subs -> Gen 0 subs (gen_paren subs).
Proof.
  intros subs H. unfold gen_paren. rewrite paren_loop_bracket.
  apply (Inv_wrap [IInfo LnStart; IAnchor LnEnd] [IInfo LnEnd] 0); [repeat split; repeat constructor|].
  exact (Gen_bracket_loop _ _ _ _ (Glue_c_newline false) (Glue_c_newline false) subs H 0).
Qed.

Lemma Gen_alt_rest : forall force subs, Subs subs -> Gen 0 subs (alt_rest force subs).
Proof.
  intros force subs. apply Gen_flat_map. intros cr H.
  destruct (is_tok TOr (fst cr) || is_tok TSlash (fst cr)); [apply Inv_alt_pair|]; exact H.
Qed.

Lemma Gen_gen_alt : forall src prev subs, Subs subs -> Gen 0 subs (gen_alt src prev subs).
Proof.
  intros src prev subs H. unfold gen_alt.
  destruct (force_multiline src prev (map fst subs)) as [force|c]; [|apply Inv_crash].
  apply (Inv_wrap [IInfo LnStart; IAnchor LnEnd; ISig StartNewLineGroup]
           [ISig FinishNewLineGroup; IInfo LnEnd] 0); [repeat split; repeat constructor|].
  destruct H as [|cr r Hc Hr]; [apply Glue_nil|].
  apply Gen_cons; [exact Hc|apply Gen_alt_rest, Hr].
Qed.

Lemma Gen_file_loop : forall src subs, Subs subs -> forall ls, Gen 0 subs (file_loop src ls subs).
Proof.
  intros src subs H. induction H as [|[c r] rest Hc _ IH]; intros ls; [apply Glue_nil|].
  (* the arm of every child that is neither a comment nor whitespace *)
  assert (G : Gen 0 ((c, r) :: rest)
                ((if negb ls && is_decl c then [ISig ExpectNewLine] else []) ++ r ++ file_loop src ls rest)).
  { apply Inv_glue_l; [destruct (negb ls && is_decl c); [apply Glue_sig; reflexivity|apply Glue_nil]|].
    apply Gen_cons; [exact Hc|apply IH]. }
  destruct c as [[] txt s|k cs]; try exact G; clear G; cbn [file_loop].
  1, 2: apply Inv_glue_l; [apply Glue_sbc|];
        apply Gen_cons; [apply Inv_push_text_chopped|];
        apply (Inv_glue_l [ISig NewLine]); [apply Glue_sig; reflexivity|apply IH].
  - apply Inv_glue_l; [apply Glue_sbc|].
    apply Gen_cons; [apply Inv_push_text|].
    apply (Inv_glue_l [ISig SpaceIfNotTrailing]); [apply Glue_sig; reflexivity|apply IH].
  - destruct (0 <? count_nl txt); [|apply IH].
    apply Inv_glue_l; [apply Glue_repeat, Glue_sig; reflexivity|apply IH].
Qed.

Lemma Gen_gen_file : forall src subs, Subs subs -> Gen 0 subs (gen_file src subs).
Proof. intros src subs H. exact (Gen_file_loop src subs H true). Qed.

Lemma Gen_semi_loop : forall subs, Subs subs -> forall first, Gen 0 subs (semi_loop first subs).
Proof.
  intros subs H. induction H as [|cr r Hc _ IH]; intros first; [apply Glue_nil|]. cbn [semi_loop].
  destruct (is_tok TWhitespace (fst cr)) eqn:E; [exact (Gen_cons 0 cr [] _ _ (For_ws _ _ E Glue_nil) (IH first))|].
  destruct (is_tok TSemi (fst cr)); [apply Gen_cons; [exact Hc|apply IH]|].
  apply Inv_glue_l; [destruct first; [apply Glue_space|apply Glue_sig; reflexivity]|].
  apply Gen_cons; [exact Hc|apply IH].
Qed.

Lemma Gen_gen_semi_list : forall subs, Subs subs -> Gen 0 subs (gen_semi_list subs).
Proof.
  intros subs H. unfold gen_semi_list. destruct H as [|cr r Hc Hr]; [apply Glue_nil|]. cbv zeta.
  apply Gen_cons; [exact Hc|]. apply Inv_indent.
  exact (Inv_wrap [] _ _ 0 _ _ _ (Inv_dedent _) (Gen_semi_loop r Hr true)).
Qed.

Lemma Gen_gen_rule_decl : forall subs, Subs subs -> Gen 0 subs (gen_rule_decl subs).
Proof.
  intros subs H. unfold gen_rule_decl. destruct H as [|cr r Hc Hr]; [apply Glue_nil|].
  apply Gen_cons; [exact Hc|]. rewrite rule_loop_bracket.
  apply (Inv_wrap [IInfo LnStart; IAnchor LnEnd] [IInfo LnEnd; IReeval (CNewLineIfMultipleLines true)] 0);
    [repeat split; repeat constructor|].
  exact (Gen_bracket_loop _ _ _ _ Glue_c_nl_or_space (Glue_c_newline true) r Hr 0).
Qed.

Lemma Inv_gen_rule : forall src prev k subs, Subs subs ->
  Inv 0 (flat_map content (map fst subs)) (bad_kind k || existsb has_bad (map fst subs))
    (gen_rule src prev k subs).
Proof.
  intros src prev k subs H.
  exact (match k with
         | RAction | RAssertion | RCommit | RName | RNodeCreation | RNodeElision | RNodeMarker
         | RNodeRename | RPlus | RPredicate | RStar | RSymbol | RTokenDecl => Gen_gen_children subs H
         | RAlternation | ROrderedChoice => Gen_gen_alt src prev subs H
         | RConcat => Gen_gen_concat subs H
         | RDecl | RPostfix | RRegex => Inv_crash CUnreachable _ _
         | RError => Gen_gen_error subs H
         | RFile => Gen_gen_file src subs H
         | ROptional | RParen => Gen_gen_paren subs H
         | RPartDecl | RRightDecl | RSkipDecl | RStartDecl | RTokenList => Gen_gen_semi_list subs H
         | RReturn | RRuleDecl => Gen_gen_rule_decl subs H
         end).
Qed.

Theorem gen_node_Inv : forall src t prev, For t (gen_node src prev t).
Proof.
  intros src t. induction t as [k txt s|k cs IH] using tree_ind2; intros prev.
  - apply For_gen_token.
  - rewrite gen_node_rule.
    pose proof (Inv_gen_rule src prev k _ (gen_subs_forall For src cs IH prev)) as H.
    rewrite gen_subs_fst in H. exact H.
Qed.

Definition count_true (alpha : nat -> bool) (j n : nat) : nat := length (filter alpha (seq j n)).

Lemma count_true_S : forall alpha j n,
  count_true alpha j (S n) = (if alpha j then 1 else 0) + count_true alpha (S j) n.
Proof. intros; unfold count_true; simpl. destruct (alpha j); reflexivity. Qed.

(* only the true branches of the multilineAlt conditions add to [f] *)
Lemma resolve_cnt : forall (f : item -> nat) rho alpha l, Forall item_ok l ->
  (forall n t e, f (ICond n t e) = 0) -> f (ISig NewLine) = 0 -> f (ISig SpaceOrNewLine) = 0 ->
  forall k ja jb,
  cnt f (resolve rho alpha k ja jb l)
  = cnt f l + 2 * f (ISig FinishIndent) * count_true alpha ja (cnt is_altA l)
            + 2 * f (ISig StartIndent) * count_true alpha jb (cnt is_altB l).
Proof.
  intros f rho alpha l H Hc Hn Hs. induction H as [|x l Hx _ IH]; intros k ja jb.
  { unfold count_true; simpl; lia. }
  destruct x as [s|s|n t e| | | |].
  1, 2, 4-7: cbn [resolve]; rewrite !cnt_cons, IH; cbn [is_altA is_altB Nat.add]; rewrite !Nat.add_assoc; reflexivity.
  destruct n as [st|force|]; simpl in Hx; [|destruct Hx as [Hx|Hx]|]; destruct Hx as [-> ->];
    cbn [resolve]; rewrite cnt_app, !cnt_cons, IH, Hc; cbn [is_altA is_altB Nat.add].
  - destruct (rho k); cbn [cnt fold_right]; rewrite ?Hn; reflexivity.
  - rewrite (count_true_S alpha ja). destruct (alpha ja); cbn [cnt fold_right]; rewrite ?Hn, ?Hs; [lia|reflexivity].
  - rewrite (count_true_S alpha jb). destruct (alpha jb); cbn [cnt fold_right]; [lia|reflexivity].
  - destruct (rho k); cbn [cnt fold_right]; rewrite ?Hn, ?Hs; reflexivity.
Qed.

Lemma gen_ok : forall src t its,
  gen src t = Ok its -> Inv 0 (content t) (has_bad t) its /\ NoCrash its.
Proof.
  intros src t its H. unfold gen in H. destruct (first_crash (gen_node src 0 t)) eqn:E; [discriminate|].
  injection H as <-. split; [apply gen_node_Inv|apply first_crash_none, E].
Qed.

Theorem fmt_content_preserved : forall src t its,
  gen src t = Ok its -> nonws (strs its) = content t.
Proof.
  intros src t its H. destruct (gen_ok _ _ _ H) as [HI NC]. exact (proj1 (inv_text HI NC)).
Qed.

Lemma nonws_removelast : forall txt, negb (is_nil txt) && is_ws (last txt 0) = true ->
  nonws (removelast txt) = nonws txt.
Proof.
  intros txt H. apply andb_true_iff in H. destruct H as [Hn Hw].
  rewrite (app_removelast_last (l := txt) 0) at 2 by (destruct txt; discriminate).
  rewrite nonws_app. simpl. rewrite Hw. simpl. rewrite app_nil_r; reflexivity.
Qed.

Lemma content_lexed : forall t, lexed t = true -> content t = nonws (leaves t).
Proof.
  induction t as [k txt s|k cs IH] using tree_ind2; intros H.
  - destruct k; simpl in *; try reflexivity.
    1, 2: apply nonws_removelast; exact H.
    destruct (nonws txt); [reflexivity|discriminate].
  - simpl in *. induction IH as [|c r Hc _ IHr]; simpl; [reflexivity|].
    simpl in H. apply andb_true_iff in H. destruct H as [H1 H2].
    rewrite nonws_app, (Hc H1), (IHr H2). reflexivity.
Qed.

Theorem fmt_nonws_preserved : forall src t its,
  gen src t = Ok its -> lexed t = true -> nonws (strs its) = nonws (leaves t).
Proof.
  intros src t its H L. rewrite (fmt_content_preserved _ _ _ H). apply content_lexed; exact L.
Qed.

Theorem fmt_conditions_hold_signals_only : forall src t its n tb fb,
  gen src t = Ok its -> In (ICond n tb fb) its ->
  cond_shape n tb fb /\ Forall is_sig tb /\ Forall is_sig fb.
Proof.
  intros src t its n tb fb H Hin. destruct (gen_ok _ _ _ H) as [HI _].
  pose proof (proj1 (Forall_forall _ _) (inv_ok HI) _ Hin) as Hs. simpl in Hs.
  split; [exact Hs|].
  destruct n; simpl in Hs; [|destruct Hs as [Hs|Hs]|]; destruct Hs as [-> ->]; split; repeat constructor.
Qed.

Theorem fmt_strings_have_no_tab_or_newline : forall src t its s,
  gen src t = Ok its -> In (IStr s) its -> ~ In b_tab s /\ ~ In b_nl s.
Proof.
  intros src t its s H Hin. destruct (gen_ok _ _ _ H) as [HI _].
  exact (proj1 (Forall_forall _ _) (inv_ok HI) _ Hin).
Qed.

Theorem fmt_indentation_balanced : forall src t its rho alpha k j,
  gen src t = Ok its ->
  cnt is_si (resolve rho alpha k j j its) = cnt is_fi (resolve rho alpha k j j its).
Proof.
  intros src t its rho alpha k j H. destruct (gen_ok _ _ _ H) as [HI _]. pose proof (inv_indent HI) as Hi.
  rewrite !resolve_cnt by (exact (inv_ok HI) || reflexivity).
  simpl. rewrite (inv_alt HI). lia.
Qed.

Theorem fmt_alt_conditions_paired : forall src t its,
  gen src t = Ok its -> cnt is_altA its = cnt is_altB its.
Proof. intros src t its H. exact (inv_alt (proj1 (gen_ok _ _ _ H))). Qed.

Theorem fmt_newline_groups_balanced : forall src t its rho alpha k ja jb,
  gen src t = Ok its ->
  cnt is_sg (resolve rho alpha k ja jb its) = cnt is_fg (resolve rho alpha k ja jb its).
Proof.
  intros src t its rho alpha k ja jb H. destruct (gen_ok _ _ _ H) as [HI _]. pose proof (inv_group HI) as Hg.
  rewrite !resolve_cnt by (exact (inv_ok HI) || reflexivity).
  simpl. lia.
Qed.

Theorem fmt_ok_means_no_unreachable_kind : forall src t its,
  gen src t = Ok its -> has_bad t = false.
Proof.
  intros src t its H. destruct (gen_ok _ _ _ H) as [HI NC]. exact (proj2 (inv_text HI NC)).
Qed.

Theorem fmt_unreachable_kind_crashes : forall src prev k cs,
  bad_kind k = true -> gen_node src prev (FRule k cs) = [ICrash CUnreachable].
Proof. intros src prev k cs H. rewrite gen_node_rule. destruct k; try discriminate; reflexivity. Qed.
