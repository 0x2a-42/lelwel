(* The loop the back end emits for a repetition or option ([Compile.c_recover]) is left without
   consuming anything when the current token cannot start the body and is in the follow or the
   recovery set of the construct. *)
From Coq Require Import List Arith Bool.
From LV Require Import Cst Tree ABuild Runtime Exec Sema Compile FuelMono.
Import ListNotations.

Section L.
Variable cx : pctx.
Variable prog : program.
Variable orc : oracles.

Lemma exec_seq_nil f rec_of n e st :
  exec_seq cx prog orc (S f) rec_of n [] e st = XOk (ONormal, env_leave n e, st).
Proof. reflexivity. Qed.

Lemma exec_ocr f rec_of e st :
  exec cx prog orc (S f) rec_of SOcr e st = if in_choice st then XOk (ORetNone, e, st) else XOk (ONormal, e, st).
Proof. reflexivity. Qed.

Definition stays (st : pstate) (a b : outcome) (r : xres (outcome * env * pstate)) : Prop :=
  exists o e' st', r = XOk (o, e', st') /\ pos st' = pos st /\ cstd st' = cstd st /\ cur st' = cur st /\ (o = a \/ o = b).

Lemma error_break_stays f rec_of ic m e st :
  stays st OBreak ORetNone
        (exec_block cx prog orc (S (S (S (S (S f))))) rec_of (ocr ic ++ [SError m; SBreak]) e st).
Proof.
  assert (Herr : forall n, stays st OBreak ORetNone
                             (exec_seq cx prog orc (S (S (S f))) rec_of n [SError m; SBreak] e st)).
  { intros n. eexists _, _, _. split; [reflexivity|]. unfold p_error. destruct (active_error st); cbn; auto. }
  rewrite exec_block_eq. destruct ic; [|apply Herr]. cbn [ocr app]. rewrite exec_seq_cons, exec_ocr.
  destruct (in_choice st); [|apply Herr]. eexists _, _, _. split; [reflexivity|]. auto.
Qed.

Lemma loop_match_stays f rec_of arms d e st :
  stays st OBreak ORetNone (exec_block cx prog orc f rec_of (pick_arm orc st d arms) e st) ->
  stays st ONormal ORetNone (exec cx prog orc (S (S (S (S f)))) rec_of (SLoop [SMatch arms d]) e st).
Proof.
  intros (o & e1 & st1 & H & H1 & H2 & H3 & Ho).
  rewrite exec_loop_eq, exec_block_eq, exec_seq_cons, exec_match_eq, H.
  destruct Ho as [-> | ->]; eexists _, _, _; (split; [reflexivity|]); auto.
Qed.

Variable sm : sema.

Lemma recover_loop_exits :
  forall rec_of id op body il ic e st fuel,
    tok_in (cur st) (pats (s_first sm) (rid_of op)) = false ->
    tok_in (cur st) (pats (s_follow sm) id) = true \/ tok_in (cur st) (pats (s_recovery sm) id) = true ->
    exists o e' st',
      exec cx prog orc (10 + fuel) rec_of (c_recover sm id op body il ic) e st = XOk (o, e', st')
      /\ pos st' = pos st /\ cstd st' = cstd st /\ cur st' = cur st /\ (o = ONormal \/ o = ORetNone).
Proof.
  intros rec_of id op body il ic e st fuel Hf Hfr.
  apply (loop_match_stays (6 + fuel)). cbn [app pick_arm]. rewrite Hf. cbn [andb].
  destruct (tok_in (cur st) (pats (s_follow sm) id)).
  { eexists _, _, _. split; [reflexivity|]. auto. }
  destruct Hfr as [Hfr|Hfr]; [discriminate Hfr|].
  destruct (pats (s_recovery sm) id) as [|r0 rr]; [discriminate Hfr|].
  cbn [andb pick_arm]. rewrite Hfr. apply error_break_stays.
Qed.
End L.

Lemma c_regex_star g sm ci cxr id op :
  c_regex g sm ci cxr (RStar id op) = [c_recover sm id op (c_regex g sm ci cxr op) true (inch sm id)].
Proof. reflexivity. Qed.
Lemma c_regex_plus g sm ci cxr id op :
  c_regex g sm ci cxr (RPlus id op)
  = c_regex g sm ci cxr op ++ [c_recover sm id op (c_regex g sm ci cxr op) true (inch sm id)].
Proof. reflexivity. Qed.
Lemma c_regex_opt g sm ci cxr id op :
  c_regex g sm ci cxr (ROpt id op) = [c_recover sm id op (c_regex g sm ci cxr op) false (inch sm id)].
Proof. reflexivity. Qed.
