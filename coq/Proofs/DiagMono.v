(* C06, second and third clause: for programs without assertion and ordered-choice
   statements the syntax diagnostics have strictly increasing start positions (at
   most one per token) and every span lies inside the source - for every input,
   oracle and fuel, as long as the end-of-input marker is never consumed (ghost
   defined). *)
From Coq Require Import List Arith Lia Bool Sorted.
From LV Require Import Cst Tree ABuild Runtime Exec ExecRel RuntimeInv ExecInv.
Import ListNotations.

Section DM.
Variable cx : pctx.
Variable prog : program.
Variable orc : oracles.

Notation P := (RuntimeInv.P cx).

Fixpoint stmt_ok (s : stmt) : bool :=
  match s with
  | SAssert _ _ | SOrdChoice _ _ _ _ _ _ => false
  | SIfNotElide b | SLoop b => forallb stmt_ok b
  | SMatch arms d => forallb (fun a => forallb stmt_ok (snd a)) arms && forallb stmt_ok d
  | _ => true
  end.

Definition block_ok (b : list stmt) : bool := forallb stmt_ok b.

Definition prog_ok : bool :=
  forallb (fun rf => block_ok (fn_body (snd rf))
                     && match fn_rec (snd rf) with Some (_, b) => block_ok b | None => true end) (p_rules prog).

Definition spans_ok : Prop :=
  length (spans cx) = length (toks cx)
  /\ (forall i j si sj, i < j -> nth_error (spans cx) i = Some si -> nth_error (spans cx) j = Some sj -> fst si < fst sj)
  /\ (forall i s, nth_error (spans cx) i = Some s -> fst s < snd s /\ snd s <= max_off cx).

(* start offset of the token at [p]; behind the last token, the end of the source *)
Definition cs (p : nat) : nat :=
  match nth_error (spans cx) p with Some s => fst s | None => max_off cx end.

Lemma cs_lt p p' : spans_ok -> p < p' -> p < length (toks cx) -> cs p < cs p'.
Proof.
  intros (Hl & Hs & Hb) Hlt Hp. unfold cs.
  destruct (nth_error (spans cx) p) as [s|] eqn:E1.
  2:{ apply nth_error_None in E1. lia. }
  destruct (nth_error (spans cx) p') as [s'|] eqn:E2.
  - apply (Hs p p' s s'); assumption.
  - destruct (Hb _ _ E1). lia.
Qed.

Lemma cs_le p p' : spans_ok -> p <= p' -> cs p <= cs p'.
Proof.
  intros Hok Hle. destruct (Nat.eq_dec p p') as [->|Hne]; [lia|].
  destruct (Nat.lt_ge_cases p (length (toks cx))) as [Hp|Hp].
  - apply Nat.lt_le_incl. apply cs_lt; try assumption. lia.
  - destruct Hok as (Hl & _ & _). unfold cs.
    assert (E1 : nth_error (spans cx) p = None) by (apply nth_error_None; lia).
    assert (E2 : nth_error (spans cx) p' = None) by (apply nth_error_None; lia).
    rewrite E1, E2. lia.
Qed.

Record DInv (st : pstate) : Prop := mkDInv {
  d_esa : err_node st <> None -> esa st = true;
  d_sorted : StronglySorted lt (map d_start (diags st));
  d_bound : forall d, In d (diags st) -> d_start d <= cs (pos st) /\ (esa st = false -> d_start d < cs (pos st));
  d_span : forall d, In d (diags st) -> d_start d <= d_end d /\ d_end d <= max_off cx;
}.

Hypothesis Hspans : spans_ok.

Definition Q (st st' : pstate) : Prop := gh st' <> None -> DInv st -> DInv st'.

Lemma Q_refl st : Q st st.
Proof. intros _ H. exact H. Qed.

Lemma same_diag_Q st st' :
  pos st' = pos st -> esa st' = esa st -> diags st' = diags st -> (err_node st' = err_node st \/ err_node st' = None) -> Q st st'.
Proof.
  intros Hp He Hd Hn _ [D1 D2 D3 D4]. constructor.
  - rewrite He. intros Hne. apply D1. destruct Hn as [Hn|Hn]; rewrite Hn in Hne; [assumption|contradiction].
  - rewrite Hd. assumption.
  - rewrite Hd, Hp, He. assumption.
  - rewrite Hd. assumption.
Qed.

Lemma StronglySorted_snoc l x : StronglySorted lt l -> (forall y, In y l -> y < x) -> StronglySorted lt (l ++ [x]).
Proof.
  induction 1 as [|a l Hs IH Hf]; intros Hx; cbn.
  - constructor; constructor.
  - constructor.
    + apply IH. intros y Hy. apply Hx. right. assumption.
    + apply Forall_app. split; [assumption|]. constructor; [|constructor]. apply Hx. left. reflexivity.
Qed.

Lemma p_span_bounds st : fst (p_span cx st) = cs (pos st) /\ fst (p_span cx st) <= snd (p_span cx st) /\ snd (p_span cx st) <= max_off cx.
Proof.
  unfold p_span, cs. destruct Hspans as (_ & _ & Hb).
  destruct (nth_error (spans cx) (pos st)) as [s|] eqn:E.
  - destruct (Hb _ _ E). repeat split; lia.
  - cbn. repeat split; lia.
Qed.

Lemma p_error_Q st m : Q st (p_error st (mk_diag cx st m)).
Proof.
  unfold p_error. destruct (active_error st) eqn:Ea; [apply Q_refl|].
  intros _ [D1 D2 D3 D4]. unfold active_error in Ea. destruct (err_node st) eqn:En; [discriminate|].
  destruct (p_span_bounds st) as (S1 & S2 & S3).
  constructor; cbn [err_node esa diags pos].
  - reflexivity.
  - rewrite map_app. cbn [map]. apply StronglySorted_snoc; [assumption|].
    intros y Hy. apply in_map_iff in Hy. destruct Hy as (d & <- & Hd).
    unfold mk_diag. cbn [d_start]. rewrite S1. apply D3; assumption.
  - intros d Hd. apply in_app_or in Hd. destruct Hd as [Hd|[<-|[]]].
    + split; [apply D3; assumption|discriminate].
    + unfold mk_diag. cbn [d_start]. rewrite S1. split; [lia|discriminate].
  - intros d Hd. apply in_app_or in Hd. destruct Hd as [Hd|[<-|[]]]; [apply D4; assumption|].
    unfold mk_diag. cbn [d_start d_end]. lia.
Qed.

(* the error node of advance_with_error is opened after error(): the flag is set *)
Lemma open_error_node_Q s : active_error s = true -> Q s (open_error_node s).
Proof.
  unfold open_error_node, active_error. destruct (err_node s); [intros _; apply Q_refl|].
  intros He. destruct (c_open (cstd s)) as [mk c'].
  intros _ [D1 D2 D3 D4]. constructor; cbn; auto.
Qed.

(* the advance proper: the cursor was on a real token and moves forward, so every diagnostic lies before it *)
Lemma advanced_Q s b : b = esa s \/ err_node s = None -> Q s (advanced cx s b).
Proof.
  intros Hb. unfold advanced.
  destruct (Nat.ltb_spec (pos s) (length (toks cx))) as [Hlt|_]; [|intros []; apply skipped_to_none].
  set (s' := skipped_to _ _ _ _ _ _). intros _ [D1 D2 D3 D4].
  assert (Hcs : cs (pos s) < cs (pos s')) by (apply cs_lt; [assumption|apply skipped_to_ge|assumption]).
  constructor.
  - intros Hn. destruct Hb as [->|Hb]; [exact (D1 Hn)|destruct (Hn Hb)].
  - exact D2.
  - intros d Hin. destruct (D3 d Hin) as (B1 & _). split; lia.
  - exact D4.
Qed.

(* the runtime relation and the diagnostic relation together are a preorder *)
Definition PQ (st st' : pstate) : Prop := P st st' /\ Q st st'.

Lemma PQ_trans a b c : PQ a b -> PQ b c -> PQ a c.
Proof.
  intros (P1 & Q1) (P2 & Q2). split; [exact (P_trans cx _ _ _ P1 P2)|].
  intros Hc Da. exact (Q2 Hc (Q1 (P_defined_before cx _ _ P2 Hc) Da)).
Qed.

Lemma p_close_error_node_PQ st s : p_close_error_node st = Ok s -> PQ st s.
Proof.
  intros H. split; [exact (p_close_error_node_P cx _ _ H)|].
  destruct (p_close_error_node_fields _ _ H) as (Hp & _ & Hd & He & Hn). apply same_diag_Q; auto.
Qed.

Lemma PQ_kept : kept cx PQ.
Proof.
  pose proof (P_kept cx) as [Pr _ _ Perr _ _ _ _ _ Pev Psic].
  apply kept_of_steps.
  - intros st. split; [apply Pr|apply Q_refl].
  - exact PQ_trans.
  - intros s b Hb. split; [apply advanced_P|exact (advanced_Q s b Hb)].
  - intros st m. split; [apply Perr|apply p_error_Q].
  - exact p_close_error_node_PQ.
  - intros s s' H. split; [exact (tree_step_P cx _ _ H)|]. destruct H. apply same_diag_Q; auto.
  - intros s H. split; [apply open_error_node_P|exact (open_error_node_Q _ H)].
  - intros st e. split; [apply Pev|apply same_diag_Q; auto].
  - intros st b. split; [apply Psic|apply same_diag_Q; auto].
Qed.

Hypothesis Hprog : prog_ok = true.

Lemma find_rule_ok r f : find_rule prog r = Some f -> ok_fn stmt_ok f = true.
Proof. exact (FuelMono.find_rule_forallb prog (ok_fn stmt_ok) r f Hprog). Qed.

Lemma stmt_ok_inside s : stmt_ok s = true -> ok_inside stmt_ok s.
Proof. destruct s; cbn; try discriminate; auto. intros H. apply andb_prop in H. exact H. Qed.

(* assertions and ordered choices are outside the fragment ([stmt_ok] is false on them): their rules are void *)
Lemma call_fn_PQ fuel f st some st' :
  call_fn cx prog orc fuel f st = XOk (some, st') -> ok_fn stmt_ok f = true -> PQ st st'.
Proof.
  intros E Hf. apply (after_XOk _ _ _ _ E).
  apply (exec_rel cx prog orc PQ (fun _ _ _ => True) stmt_ok stmt_ok_inside find_rule_ok PQ_kept); auto.
  - discriminate.
  - discriminate.
Qed.

Lemma p_open_shape st m st' : p_open st = Ok (m, st') -> diags st' = diags st /\ gh st' = None -> gh st' = None.
Proof. tauto. Qed.

Theorem diag_monotone fuel r root msg st :
  parse_entry cx prog orc fuel r root msg = XOk st ->
  gh st <> None ->
  StronglySorted lt (map d_start (diags st))
  /\ forall d, In d (diags st) -> d_start d <= d_end d /\ d_end d <= max_off cx.
Proof.
  unfold parse_entry. destruct (p_open_init cx) as (st0 & -> & F0 & _).
  destruct (find_rule prog r) as [f|] eqn:Ef; [|discriminate].
  set (st1 := p_init_skip cx st0) in *.
  assert (D1 : DInv st1).
  { assert (F1 : diags st1 = [] /\ err_node st1 = None).
    { subst st1. unfold p_init_skip. destruct (skip_loop cx _ _ _ _) as [[[p' t'] c'] g']. exact F0. }
    destruct F1 as (Fd & Fn). constructor; rewrite ?Fd, ?Fn; try (intros d []); [intros []; reflexivity|constructor]. }
  assert (Hend : forall s, PQ st1 s -> gh s <> None ->
            StronglySorted lt (map d_start (diags s))
            /\ forall d, In d (diags s) -> d_start d <= d_end d /\ d_end d <= max_off cx).
  { intros s (_ & Qs) Hg. destruct (Qs Hg D1) as [_ Ds _ Dsp]. split; assumption. }
  destruct (call_fn cx prog orc fuel f st1) as [[some st2]| | |] eqn:Ec; try discriminate.
  pose proof (call_fn_PQ _ _ _ _ _ Ec (find_rule_ok _ _ Ef)) as PQ12.
  destruct (p_close_error_node st2) as [st3|w] eqn:E3; [|discriminate].
  pose proof (PQ_trans _ _ _ PQ12 (p_close_error_node_PQ _ _ E3)) as PQ13.
  match goal with |- match ?x with _ => _ end = _ -> _ => destruct x as [st7|w] eqn:E7; [|discriminate] end.
  destruct (c_close_root (cstd st7) 0 root) as [c8|w] eqn:E8; [|discriminate].
  intros [= <-]. cbn [gh add_event set_cst cstd diags].
  intros Hne.
  destruct (gh st7) as [g7|] eqn:G7; [|contradiction].
  destruct (Nat.eqb (pos st3) (length (toks cx))).
  - injection E7 as <-. apply (Hend _ PQ13). rewrite G7. discriminate.
  - destruct (p_open (p_error st3 (mk_diag cx st3 msg))) as [[et st5]|w] eqn:E5; [|discriminate].
    destruct (drain_toks cx (skipn (pos st5) (toks cx)) (cstd st5) (gh st5)) as [c6 g6] eqn:E6.
    match type of E7 with match ?x with _ => _ end = _ => destruct x as [c7|w] eqn:Ec7; [|discriminate] end.
    injection E7 as <-. cbn [gh add_event set_cst cstd snaps diags] in *.
    apply Hend.
    + exact (PQ_trans _ _ _ PQ13 (PQ_trans _ _ _ (k_error _ _ PQ_kept st3 msg) (k_open _ _ PQ_kept _ _ _ E5))).
    + intro Hb. rewrite Hb in E6. apply drain_none in E6. subst g6. discriminate G7.
Qed.

End DM.
