(* C16, third clause: the generated parser never dispatches on a skipped token and the
   lookahead offered to predicates never contains one.  [NS] (the current token is the
   token at the cursor and is not a skipped token) is established by init_skip and
   preserved by every statement of every program (instance of ExecRel.exec_keeps_all). *)
From Coq Require Import List Arith Bool.
From LV Require Import Cst Tree ABuild Runtime Exec ExecRel.
Import ListNotations.

Section NS.
Variable cx : pctx.

Definition NS (st : pstate) : Prop :=
  cur st = nth (pos st) (toks cx) (eoi cx)
  /\ (pos st < length (toks cx) -> is_skipped cx (cur st) = false).

Definition NSsaved (sv : saved) : Prop :=
  sv_cur sv = nth (sv_pos sv) (toks cx) (eoi cx)
  /\ (sv_pos sv < length (toks cx) -> is_skipped cx (sv_cur sv) = false).

Lemma same_cursor st st' : pos st' = pos st -> cur st' = cur st -> NS st -> NS st'.
Proof. unfold NS. intros -> ->. auto. Qed.

Lemma ns_error st d : NS st -> NS (p_error st d).
Proof. unfold p_error. destruct (active_error st); [auto|]. apply same_cursor; reflexivity. Qed.

Definition NSrel (st st' : pstate) : Prop := NS st -> NS st'.

Lemma NSrel_kept : kept cx NSrel.
Proof.
  apply kept_of_steps; unfold NSrel.
  - auto.
  - auto.
  - intros s b _ _. apply skipped_to_cur.
  - intros st m. apply ns_error.
  - intros st s H. destruct (p_close_error_node_fields _ _ H) as (Hp & Hc & _). exact (same_cursor _ _ Hp Hc).
  - intros s s' []. apply same_cursor; reflexivity.
  - intros s _. unfold open_error_node. destruct (err_node s); [auto|].
    destruct (c_open (cstd s)). apply same_cursor; reflexivity.
  - intros st e. apply same_cursor; reflexivity.
  - intros st b. apply same_cursor; reflexivity.
Qed.

Lemma ns_init_skip st : NS (p_init_skip cx st).
Proof. rewrite p_init_skip_eq. apply skipped_to_cur. Qed.

Variable prog : program.
Variable orc : oracles.

Lemma ns_get st sv st0 : NS st -> p_get_state st = (sv, st0) -> NS st0 /\ NSsaved sv.
Proof. intros H [= <- <-]. split; exact H. Qed.

Lemma ns_set del st sv : NSsaved sv -> NS (p_set_state del st sv).
Proof. intros H. exact H. Qed.

Lemma exec_NS : forall fuel, exec_keeps cx prog orc NSrel fuel.
Proof.
  apply (exec_keeps_all cx prog orc NSrel (fun sv st1 st' => NSsaved sv -> NSrel st1 st')); unfold NSrel.
  - exact NSrel_kept.
  - intros st. apply same_cursor; reflexivity.
  - intros st sv st0 st' Hg HA HI. destruct (ns_get _ _ _ HI Hg) as (HI0 & HS). exact (HA HS HI0).
  - intros sv st1 st3 H13 _ HI. exact (H13 HI).
  - intros sv st1 st2 st' _ HA HS _. exact (HA HS (ns_set _ _ _ HS)).
Qed.

(* every rule function, entered with the invariant, returns with it: at every dispatch the
   current token is a non-skipped token or the end-of-input marker *)
Theorem call_fn_no_skip fuel f st some st' :
  call_fn cx prog orc fuel f st = XOk (some, st') -> NS st -> NS st'.
Proof. apply (exec_NS fuel). Qed.

Theorem exec_no_skip fuel rec_of s e st o e' st' :
  exec cx prog orc fuel rec_of s e st = XOk (o, e', st') -> NS st -> NS st'.
Proof. apply (exec_NS fuel). Qed.

(* lookahead for predicates: peek / peek_left only ever return non-skipped tokens (or the marker) *)
Lemma nth_filter_ns (l : list tok) n :
  nth n (filter (fun t => negb (is_skipped cx t)) l) (eoi cx) = eoi cx
  \/ is_skipped cx (nth n (filter (fun t => negb (is_skipped cx t)) l) (eoi cx)) = false.
Proof.
  destruct (Nat.lt_ge_cases n (length (filter (fun t => negb (is_skipped cx t)) l))) as [Hlt|Hge].
  - right. pose proof (nth_In _ (eoi cx) Hlt) as Hin. apply filter_In in Hin. destruct Hin as (_ & Hn).
    apply negb_true_iff in Hn. exact Hn.
  - left. apply nth_overflow. assumption.
Qed.

Theorem peek_no_skip st n : p_peek cx st n = eoi cx \/ is_skipped cx (p_peek cx st n) = false.
Proof. apply nth_filter_ns. Qed.

Theorem peek_left_no_skip st n : p_peek_left cx st n = eoi cx \/ is_skipped cx (p_peek_left cx st n) = false.
Proof. apply nth_filter_ns. Qed.

End NS.
