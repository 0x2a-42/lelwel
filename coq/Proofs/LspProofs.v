(* The document store of the language server (Model/Lsp.v part 3): theorems for every history, no
   bound on length, number of documents or texts, and for every analysis function; then what still
   fails, as witnesses. *)
From Coq Require Import List Arith NArith Bool.
From LV Require Import Lsp LspPos.
Import ListNotations.

Lemma lookup_remove : forall u v s,
  lookup u (remove v s) = if v =? u then None else lookup u s.
Proof.
  intros u v s. induction s as [|[w t] s IH]; simpl.
  - destruct (v =? u); reflexivity.
  - destruct (Nat.eqb_spec w v) as [->|Hwv]; simpl; rewrite IH.
    + destruct (v =? u); reflexivity.
    + destruct (Nat.eqb_spec w u) as [->|_]; [|reflexivity].
      destruct (Nat.eqb_spec v u); [congruence|reflexivity].
Qed.

Lemma lookup_set : forall u v t s,
  lookup u (set v t s) = if v =? u then Some t else lookup u s.
Proof.
  intros u v t s. unfold set. simpl. rewrite lookup_remove. destruct (v =? u); reflexivity.
Qed.

Lemma mem_del : forall u v l, mem v (del u l) = true -> v <> u /\ mem v l = true.
Proof.
  intros u v l. induction l as [|w l IH]; simpl; [discriminate|].
  destruct (Nat.eqb_spec w u) as [He|Hne].
  - intro H. destruct (IH H) as [H1 H2]. split; [exact H1|]. rewrite H2. apply orb_true_r.
  - simpl. destruct (Nat.eqb_spec w v) as [Hwv|Hwv].
    + intros _. split; [congruence|reflexivity].
    + simpl. exact IH.
Qed.

(* the whole-text range of a formatting answer always converts: 0 and the end of the text are
   character boundaries *)
Lemma locate_total : forall t k line ch, locate t k line ch <> None.
Proof.
  intros t k line ch. destruct k; simpl; try discriminate.
  pose proof (offset_to_position_exact t 0) as H0. simpl in H0.
  pose proof (offset_to_position_exact t (length t)) as He. rewrite firstn_all in He.
  rewrite H0, He. discriminate.
Qed.

Section StoreProofs.
  Variable A : Type.
  Variable analyse : text -> A.

  Notation step := (step A analyse).
  Notation run := (run A analyse).

  (* what a server that follows the history alone would send *)
  Definition expected (past : history) (o : op) : out A :=
    match o with
    | Open u t => Publish u (analyse t)
    | Change u cs => match cs with [] => Silent | c :: r => Publish u (analyse (last r c)) end
    | Close u => Silent
    | Request k u line ch =>
        match latest past u with
        | None => Crash
        | Some t => match locate t k line ch with
                    | Some l => Answer k u (analyse t) l
                    | None => Crash
                    end
        end
    end.

  Fixpoint spec_run (past : history) (h : history) : list (out A) :=
    match h with [] => [] | o :: r => expected past o :: spec_run (past ++ [o]) r end.

  Definition publishes_for (u : uri) (o : out A) : bool :=
    match o with Publish v _ => v =? u | _ => false end.
  Definition carries_text_for (u : uri) (o : op) : bool :=
    match o with
    | Open v _ => v =? u
    | Change v (_ :: _) => v =? u
    | _ => false
    end.

  Theorem request_keeps_state : forall s k u line ch, fst (step s (Request k u line ch)) = s.
  Proof.
    intros s k u line ch. simpl. destruct (lookup u s) as [t|]; [|reflexivity].
    destruct (locate t k line ch); reflexivity.
  Qed.

  Lemma step_lookup : forall s o u, lookup u (fst (step s o)) = upd u (lookup u s) o.
  Proof.
    intros s o u. destruct o as [v t|v [|c r]|v|k v line ch].
    - apply lookup_set.
    - simpl. destruct (v =? u); reflexivity.
    - apply lookup_set.
    - apply lookup_remove.
    - rewrite request_keeps_state. reflexivity.
  Qed.

  Theorem step_other_document : forall s o u,
    uri_of o <> u -> lookup u (fst (step s o)) = lookup u s.
  Proof.
    intros s o u Hne. rewrite step_lookup. apply Nat.eqb_neq in Hne.
    destruct o as [v t|v [|c r]|v|k v line ch]; simpl in *; try rewrite Hne; reflexivity.
  Qed.

  Definition opened_present (opened : list uri) (s : state) : Prop :=
    forall u, mem u opened = true -> lookup u s <> None.

  Lemma conformant_step : forall o h opened s,
    opened_present opened s -> conformant_from opened (o :: h) = true ->
    snd (step s o) <> Crash
    /\ exists opened', opened_present opened' (fst (step s o)) /\ conformant_from opened' h = true.
  Proof.
    intros o h opened s Hinv Hc.
    destruct o as [u t|u cs|u|k u line ch]; simpl in Hc; apply andb_true_iff in Hc as [Hm Hc].
    - split; [discriminate|]. exists (u :: opened). split; [|exact Hc].
      intros v Hv. rewrite step_lookup. simpl in *.
      destruct (u =? v); [discriminate|apply Hinv, Hv].
    - split; [destruct cs; discriminate|]. exists opened. split; [|exact Hc].
      intros v Hv. rewrite step_lookup. simpl.
      destruct (u =? v), cs; try discriminate; apply Hinv, Hv.
    - split; [discriminate|]. exists (del u opened). split; [|exact Hc].
      intros v Hv. rewrite step_lookup. simpl. apply mem_del in Hv as [Hne Hv].
      destruct (Nat.eqb_spec u v); [congruence|apply Hinv, Hv].
    - split; [|exists opened; split; [|exact Hc]].
      + simpl. apply Hinv in Hm. destruct (lookup u s) as [t|]; [|contradiction].
        pose proof (locate_total t k line ch). destruct (locate t k line ch); [discriminate|contradiction].
      + intros v Hv. rewrite step_lookup. apply Hinv, Hv.
  Qed.

  Lemma run_no_crash_from : forall h opened s,
    opened_present opened s -> conformant_from opened h = true -> ~ In Crash (run s h).
  Proof.
    induction h as [|o h IH]; intros opened s Hinv Hc; [intros []|].
    destruct (conformant_step o h opened s Hinv Hc) as (Ho & opened' & Hinv' & Hc').
    intros [Hx|Hx]; [exact (Ho Hx)|exact (IH opened' _ Hinv' Hc' Hx)].
  Qed.

  Theorem conformant_never_crashes : forall h, conformant h = true -> ~ In Crash (run [] h).
  Proof.
    intros h Hc. apply (run_no_crash_from h [] []); [|exact Hc]. intros u Hu. discriminate.
  Qed.

  Lemma latest_snoc : forall past o u, latest (past ++ [o]) u = upd u (latest past u) o.
  Proof. intros past o u. unfold latest. rewrite fold_left_app. reflexivity. Qed.

  Lemma step_out : forall s past o,
    lookup (uri_of o) s = latest past (uri_of o) -> snd (step s o) = expected past o.
  Proof.
    intros s past o H. destruct o as [v t|v [|c r]|v|k v line ch]; simpl in *; try reflexivity.
    rewrite <- H. destruct (lookup v s) as [t|]; [|reflexivity].
    destruct (locate t k line ch); reflexivity.
  Qed.

  Lemma run_eq_spec_from : forall h past s,
    (forall u, lookup u s = latest past u) -> run s h = spec_run past h.
  Proof.
    induction h as [|o h IH]; intros past s Hinv; simpl; [reflexivity|].
    f_equal; [apply step_out, Hinv|]. apply IH. intro u.
    rewrite step_lookup, latest_snoc, Hinv. reflexivity.
  Qed.

  Theorem run_is_latest : forall h, run [] h = spec_run [] h.
  Proof. intro h. apply run_eq_spec_from. reflexivity. Qed.

  Lemma spec_run_nth : forall pre past o rest,
    nth_error (spec_run past (pre ++ o :: rest)) (length pre) = Some (expected (past ++ pre) o).
  Proof.
    induction pre as [|p pre IH]; intros past o rest; simpl.
    - rewrite app_nil_r. reflexivity.
    - rewrite IH. rewrite <- app_assoc. reflexivity.
  Qed.

  Lemma run_nth : forall past o rest,
    nth_error (run [] (past ++ o :: rest)) (length past) = Some (expected past o).
  Proof. intros past o rest. rewrite run_is_latest. exact (spec_run_nth past [] o rest). Qed.

  Theorem request_answered_from_latest : forall past k u line ch rest,
    let h := past ++ Request k u line ch :: rest in
    conformant h = true ->
    exists t l, latest past u = Some t /\ locate t k line ch = Some l
                /\ nth_error (run [] h) (length past) = Some (Answer k u (analyse t) l).
  Proof.
    intros past k u line ch rest h Hc.
    pose proof (conformant_never_crashes h Hc) as Hnc.
    pose proof (run_nth past (Request k u line ch) rest) as Hn. fold h in Hn.
    assert (Hx : expected past (Request k u line ch) <> Crash).
    { intro Hx. rewrite Hx in Hn. apply Hnc. eapply nth_error_In. exact Hn. }
    simpl in Hn, Hx. destruct (latest past u) as [t|]; [|contradiction].
    destruct (locate t k line ch) as [l|] eqn:Hl; [|contradiction]. exists t, l. auto.
  Qed.

  Theorem open_published_from_latest : forall past u t rest,
    nth_error (run [] (past ++ Open u t :: rest)) (length past) = Some (Publish u (analyse t))
    /\ latest (past ++ [Open u t]) u = Some t.
  Proof.
    intros past u t rest. split; [apply run_nth|].
    rewrite latest_snoc. simpl. rewrite Nat.eqb_refl. reflexivity.
  Qed.

  Theorem change_published_from_latest : forall past u c r rest,
    nth_error (run [] (past ++ Change u (c :: r) :: rest)) (length past)
      = Some (Publish u (analyse (last r c)))
    /\ latest (past ++ [Change u (c :: r)]) u = Some (last r c).
  Proof.
    intros past u c r rest. split; [apply (run_nth past (Change u (c :: r)))|].
    rewrite latest_snoc. simpl. rewrite Nat.eqb_refl. reflexivity.
  Qed.

  Theorem empty_change_is_silent : forall s u, step s (Change u []) = (s, Silent).
  Proof. reflexivity. Qed.

  Theorem one_publication_per_text : forall h s u,
    map (publishes_for u) (run s h) = map (carries_text_for u) h.
  Proof.
    induction h as [|o h IH]; intros s u; simpl; [reflexivity|].
    f_equal; [|apply IH].
    destruct o as [v t|v [|c r]|v|k v line ch]; simpl; try reflexivity.
    destruct (lookup v s) as [t|]; [|reflexivity]. destruct (locate t k line ch); reflexivity.
  Qed.

  Theorem run_length : forall h s, length (run s h) = length h.
  Proof. induction h as [|o h IH]; intro s; simpl; [reflexivity|]. rewrite IH. reflexivity. Qed.

  Theorem request_without_document_crashes : forall s k u line ch,
    lookup u s = None -> step s (Request k u line ch) = (s, Crash).
  Proof. intros s k u line ch Hl. simpl. rewrite Hl. reflexivity. Qed.

  Theorem change_without_document_opens : forall s u c r,
    step s (Change u (c :: r)) = step s (Open u (last r c)).
  Proof. reflexivity. Qed.

  Theorem reopen_replaces : forall s u t, lookup u (fst (step s (Open u t))) = Some t.
  Proof. intros s u t. rewrite step_lookup. simpl. rewrite Nat.eqb_refl. reflexivity. Qed.

  Theorem close_is_silent : forall s u, snd (step s (Close u)) = Silent.
  Proof. reflexivity. Qed.
End StoreProofs.

Definition t1 : text := [116; 233; 128512; 13; 10; 98]%N.   (* "té😀\r\nb" *)
Definition t2 : text := [97]%N.
Definition t3 : text := [98; 10]%N.
Definition run_id := run text (fun t => t).

(* what still fails: a request for a closed (never opened, or closed again) document kills the server *)
Lemma request_on_closed_document_refuted :
  run_id [] [Request Hover 7 0 0] = [Crash]
  /\ run_id [] [Open 7 t1; Close 7; Request Completion 7 0 0] = [Publish 7 t1; Silent; Crash].
Proof. vm_compute. split; reflexivity. Qed.

(* non-vacuity: a conformant history over two documents with close and reopen, a change with two
   entries (the last one, t3, is published and answered from) and a change without entries *)
Definition ex_history : history :=
  [Open 1 t1; Request Hover 1 0 2; Open 2 t2; Change 1 [t2; t3]; Request Completion 2 5 5;
   Change 1 []; Request Formatting 1 0 0; Close 1; Request GotoDef 2 0 1; Open 1 t1;
   Request References 1 1 1; Request Formatting 1 0 0; Close 2; Close 1].

Example ex_history_hypotheses : conformant ex_history = true.
Proof. vm_compute. reflexivity. Qed.

Example ex_history_run :
  run_id [] ex_history =
  [Publish 1 t1; Answer Hover 1 t1 (AtOffset 3); Publish 2 t2; Publish 1 t3;
   Answer Completion 2 t2 (AtOffset 1); Silent; Answer Formatting 1 t3 (WholeText (0, 0) (1, 0)); Silent;
   Answer GotoDef 2 t2 (AtOffset 1); Publish 1 t1; Answer References 1 t1 (AtOffset 10);
   Answer Formatting 1 t1 (WholeText (0, 0) (1, 1)); Silent; Silent]
  /\ latest [Open 1 t1; Change 1 [t2; t3]; Change 1 []] 1 = Some t3.
Proof. vm_compute. split; reflexivity. Qed.
