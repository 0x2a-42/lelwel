(* C01/C02: what the node references of the public interface denote.
   - The child iterator (CstChildren, Cst.walk_children / c_children) applied to the pre-order layout
     of a tree yields exactly the roots of the child subtrees, in order.
   - C02, second clause: create_node is announced for the node that was just closed, with the kind it
     was closed with.  In the command language SClose / SCreate / the error paths log [ECreate k ref]
     right after [p_close st m k] returned [ref]; [p_close_truthful] says what that reference is. *)
From Coq Require Import List Arith.
From LV Require Import Cst Tree Runtime ListLemmas Refine.
Import ListNotations.

Fixpoint child_offsets (f : list tree) (off : nat) : list nat :=
  match f with
  | [] => []
  | t :: r => off :: child_offsets r (off + tsize t)
  end.

Lemma walk_children_forest : forall f fuel off,
  fsize f <= fuel -> walk_children fuel (fflatten f) off = child_offsets f off.
Proof.
  induction f as [|[k cs|tk i] r IH]; intros [|fuel] off Hf; try reflexivity; try (inversion Hf; fail);
    apply le_S_n in Hf.
  - change (fflatten (TNode k cs :: r)) with (NRule k (fsize cs) :: fflatten cs ++ fflatten r).
    cbn [walk_children child_offsets]. rewrite skipn_fflatten, IH by exact (Nat.le_trans _ _ _ (Nat.le_add_l _ _) Hf).
    do 2 f_equal. apply Nat.add_succ_comm.
  - cbn [fflatten flat_map flatten app walk_children child_offsets]. rewrite IH by exact Hf.
    do 2 f_equal. symmetry. apply Nat.add_1_r.
Qed.

Lemma children_at c pre k cs post :
  nodes c = pre ++ flatten (TNode k cs) ++ post ->
  c_children c (length pre) = Ok (child_offsets cs (S (length pre))).
Proof.
  intros Hn. unfold c_children. rewrite Hn.
  change (flatten (TNode k cs) ++ post) with (NRule k (fsize cs) :: fflatten cs ++ post).
  rewrite nth_error_app2, Nat.sub_diag by constructor. cbn [nth_error].
  rewrite app_length. cbn [length]. rewrite app_length, fflatten_length.
  rewrite (proj2 (Nat.ltb_ge _ _))
    by (rewrite <- Nat.add_assoc, Nat.add_1_r; apply Nat.add_le_mono_l, le_n_S, Nat.le_add_r).
  rewrite skipn_S_app_mid, firstn_fflatten, fflatten_length, walk_children_forest by constructor. reflexivity.
Qed.

Theorem children_of_root c k cs :
  nodes c = flatten (TNode k cs) -> c_children c 0 = Ok (child_offsets cs 1).
Proof. intros Hn. apply (children_at c [] k cs []). rewrite Hn. symmetry. apply app_nil_r. Qed.

Lemma c_close_cell c m k c' :
  c_close c m k = Ok c' -> exists off, nth_error (nodes c') m = Some (NRule k off).
Proof.
  unfold c_close. destruct (nsl c) as [|len]; [discriminate|].
  destruct (Nat.leb_spec (length (nodes c)) m) as [|Hlt]; [discriminate|].
  destruct (len <? m); intros [= <-]; cbn [nodes]; eexists; apply set_nth_get; assumption.
Qed.

Theorem p_close_truthful st m k ref st' :
  p_close st m k = Ok (ref, st') ->
  ref = m /\ exists off, nth_error (nodes (cstd st')) ref = Some (NRule k off).
Proof.
  unfold p_close. destruct (p_close_error_node st) as [s|w]; [|discriminate].
  destruct (c_close (cstd s) m k) as [c'|w] eqn:E; [|discriminate]. intros [= <- <-].
  split; [reflexivity|]. cbn [set_cst cstd]. eapply c_close_cell. eassumption.
Qed.
