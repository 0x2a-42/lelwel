(* Non-vacuity for C09: a concrete grammar  s: a B | C ;  a: [D] a2 ;  a2: E-star  meets every
   hypothesis of [first_exact_any] and its computed map passes [first_closed]; its first and follow
   sets are the expected ones. *)
From Coq Require Import List Arith.
From LV Require Import Sema FirstSpec FirstCert.
Import ListNotations.

Definition ex_g : grammar :=
  mkGrammar
    [ mkRule 100 (Some (RAlt 1 [RCat 2 [RRule 3 1; RTok 4 2]; RTok 5 3])) false;
      mkRule 101 (Some (RCat 6 [ROpt 7 (RTok 8 4); RRule 9 2])) false;
      mkRule 102 (Some (RStar 10 (RTok 11 5))) false ]
    0 [] 0 [] [] [] [].

Example ex_certs :
  wf_ids_b ex_g = true /\ productive_b ex_g = true /\
  exists m, calc_first ex_g 50 = Some m /\ first_closed ex_g m = true
            /\ get m 1 = [T 3; T 4; T 5; T 2] /\ get m 6 = [T 4; T 5; Eps].
Proof.
  split; [vm_compute; reflexivity|]. split; [vm_compute; reflexivity|].
  eexists. split; [vm_compute; reflexivity|]. split; vm_compute; auto.
Qed.

(* follow sets of the same grammar: the loop terminates, the end marker (token 0) follows the start
   body, and B (token 2) follows the reference to rule a *)
Example ex_follow :
  exists fi fo lf, calc_first ex_g 50 = Some fi /\ calc_follow ex_g fi 50 = Some (fo, lf)
                   /\ mem (T 0) (get fo 1) = true /\ get fo 3 = [T 2].
Proof.
  eexists. eexists. eexists. split; [vm_compute; reflexivity|]. split; [vm_compute; reflexivity|].
  split; vm_compute; reflexivity.
Qed.
