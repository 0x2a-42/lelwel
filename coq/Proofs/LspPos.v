(* Position conversion of the language server (Model/Lsp.v part 2b, the one-pass pair
   `position_to_offset` / `offset_to_position`): theorems for every text, line, character and byte
   offset, then the inputs on which a property one would wish for fails. *)
From Coq Require Import List Arith NArith Bool Lia.
From LV Require Import Lsp.
Import ListNotations.

Lemma utf8_len_pos : forall c, 1 <= utf8_len c.
Proof. intro c. unfold utf8_len. repeat destruct (_ <? _)%N; lia. Qed.

Lemma utf16_len_pos : forall c, 1 <= utf16_len c.
Proof. intro c. unfold utf16_len. destruct (_ <? _)%N; lia. Qed.

Lemma utf8_len_nl : forall c, (c =? NL)%N = true -> utf8_len c = 1.
Proof. intros c Hc. apply N.eqb_eq in Hc. subst c. reflexivity. Qed.

Lemma blen_app : forall a b, blen (a ++ b) = blen a + blen b.
Proof. induction a as [|c a IH]; intro b; simpl; [reflexivity|]. rewrite IH. lia. Qed.

Lemma ulen_app : forall a b, ulen (a ++ b) = ulen a + ulen b.
Proof. induction a as [|c a IH]; intro b; simpl; [reflexivity|]. rewrite IH. lia. Qed.

Lemma blen_firstn_le : forall k t, blen (firstn k t) <= blen t.
Proof.
  intros k t. pose proof (blen_app (firstn k t) (skipn k t)) as H.
  rewrite firstn_skipn in H. lia.
Qed.

Lemma firstn_length_app : forall (a b : text), firstn (length a) (a ++ b) = a.
Proof.
  intros a b. rewrite firstn_app, firstn_all, Nat.sub_diag. apply app_nil_r.
Qed.

Lemma split_nl_hd : forall t, exists ls, split_nl t = first_line t :: ls.
Proof.
  induction t as [|c t IH]; simpl.
  - eauto.
  - destruct (c =? NL)%N; [eauto|]. destruct IH as [ls Hls]. rewrite Hls. eauto.
Qed.

Lemma no_nl_cons : forall c a, no_nl (c :: a) = true -> (c =? NL)%N = false /\ no_nl a = true.
Proof.
  intros c a H. apply andb_true_iff in H as [Hc Ha]. apply negb_true_iff in Hc. auto.
Qed.

Lemma first_line_app : forall a s, no_nl a = true -> first_line (a ++ s) = a ++ first_line s.
Proof.
  induction a as [|c a IH]; intros s Hn; [reflexivity|].
  destruct (no_nl_cons c a Hn) as [Hc Ha]. simpl. rewrite Hc, (IH s Ha). reflexivity.
Qed.

Lemma drop_lines_cons : forall c t l off,
  drop_lines (c :: t) (S l) off = drop_lines t (if (c =? NL)%N then l else S l) (off + utf8_len c).
Proof. intros c t l off. simpl. destruct (c =? NL)%N; reflexivity. Qed.

Lemma split_nl_cons_nth : forall c t l,
  nth_error (split_nl (c :: t)) (S l) = nth_error (split_nl t) (if (c =? NL)%N then l else S l).
Proof. intros c t l. simpl. destruct (split_nl_hd t) as [ls ->]. destruct (c =? NL)%N; reflexivity. Qed.

Lemma line_off_cons : forall c t l,
  line_off (c :: t) (S l) = utf8_len c + line_off t (if (c =? NL)%N then l else S l).
Proof.
  intros c t l. unfold line_off. simpl. destruct (split_nl_hd t) as [ls ->].
  destruct (c =? NL)%N eqn:Hc; simpl; [rewrite (utf8_len_nl c Hc)|]; lia.
Qed.

Lemma scan_spec : forall r off units ch,
  exists p q, r = p ++ q /\ no_nl p = true /\ scan r off units ch = off + blen p.
Proof.
  induction r as [|c r IH]; intros off units ch; simpl.
  - exists [], []. auto.
  - destruct (_ || _ || _) eqn:Hstop; [exists [], (c :: r); auto|].
    apply orb_false_iff in Hstop as [Hstop _]. apply orb_false_iff in Hstop as [_ Hnl].
    destruct (IH (off + utf8_len c) (units + utf16_len c) ch) as (p & q & -> & Hp & Hs).
    exists (c :: p), q. simpl. rewrite Hnl, Hp, Hs. repeat split. lia.
Qed.

Lemma drop_lines_spec : forall t l off,
  match drop_lines t l off with
  | Some (r, a) => exists pre, t = pre ++ r /\ a = off + blen pre
                   /\ nth_error (split_nl t) l = Some (first_line r) /\ blen pre = line_off t l
  | None => nth_error (split_nl t) l = None
  end.
Proof.
  induction t as [|c t IH]; intros [|l] off.
  - exists []. simpl. auto.
  - destruct l; reflexivity.
  - exists []. destruct (split_nl_hd (c :: t)) as [ls Hls]. rewrite Hls. simpl. auto.
  - rewrite drop_lines_cons, split_nl_cons_nth, line_off_cons.
    specialize (IH (if (c =? NL)%N then l else S l) (off + utf8_len c)).
    destruct (drop_lines t _ _) as [[r a]|]; [|exact IH].
    destruct IH as (pre & Ht & Ha & Hnth & Hpre). exists (c :: pre). simpl.
    rewrite <- Ht, <- Hpre. repeat split; [lia|exact Hnth].
Qed.

Lemma position_to_offset_spec : forall t l ch,
  match nth_error (split_nl t) l with
  | Some ln => exists pre p q, t = pre ++ p ++ q /\ ln = p ++ first_line q
                 /\ blen pre = line_off t l /\ position_to_offset t l ch = blen pre + blen p
  | None => position_to_offset t l ch = blen t
  end.
Proof.
  intros t l ch. unfold position_to_offset. pose proof (drop_lines_spec t l 0) as Hd.
  destruct (drop_lines t l 0) as [[r a]|]; [|rewrite Hd; reflexivity].
  destruct Hd as (pre & -> & -> & -> & Hb).
  destruct (scan_spec r (blen pre) 0 ch) as (p & q & -> & Hp & Hs).
  exists pre, p, q. rewrite (first_line_app p q Hp). auto.
Qed.

Theorem position_to_offset_in_line : forall t l ch ln,
  nth_error (split_nl t) l = Some ln ->
  exists k, k <= length ln /\ position_to_offset t l ch = line_off t l + blen (firstn k ln).
Proof.
  intros t l ch ln Hln. pose proof (position_to_offset_spec t l ch) as H. rewrite Hln in H.
  destruct H as (pre & p & q & _ & -> & <- & Hp). exists (length p).
  rewrite app_length, firstn_length_app. split; [lia|exact Hp].
Qed.

Theorem position_to_offset_no_line : forall t l ch,
  nth_error (split_nl t) l = None -> position_to_offset t l ch = blen t.
Proof.
  intros t l ch Hln. pose proof (position_to_offset_spec t l ch) as H. rewrite Hln in H. exact H.
Qed.

(* a character boundary of the text: the byte length of a prefix of code points *)
Theorem position_to_offset_boundary : forall t l ch,
  exists k, k <= length t /\ position_to_offset t l ch = blen (firstn k t).
Proof.
  intros t l ch. pose proof (position_to_offset_spec t l ch) as H.
  destruct (nth_error (split_nl t) l) as [ln|].
  - destruct H as (pre & p & q & -> & _ & _ & Hp). exists (length (pre ++ p)).
    rewrite Hp, app_assoc, firstn_length_app, blen_app, (app_length (pre ++ p)). split; lia.
  - exists (length t). rewrite firstn_all. auto.
Qed.

Theorem position_to_offset_le_len : forall t l ch, position_to_offset t l ch <= blen t.
Proof.
  intros t l ch. destruct (position_to_offset_boundary t l ch) as [k [_ Hk]]. rewrite Hk.
  apply blen_firstn_le.
Qed.

Lemma o2p_go_walk : forall pre suf off cur line units acc,
  off = cur + blen pre -> units = ulen acc ->
  o2p_go (pre ++ suf) off cur line units
  = Some (fst (walk pre line acc), ulen (snd (walk pre line acc))).
Proof.
  induction pre as [|c p IH]; intros suf off cur line units acc Hoff ->; cbn [app blen walk] in *.
  - replace off with cur by lia. destruct suf; simpl; rewrite Nat.eqb_refl; reflexivity.
  - pose proof (utf8_len_pos c) as Hpos. cbn [o2p_go].
    destruct (Nat.eqb_spec cur off); [lia|]. destruct (Nat.ltb_spec off (cur + utf8_len c)); [lia|].
    destruct (c =? NL)%N.
    + apply IH; [lia|reflexivity].
    + apply IH; [lia|]. rewrite ulen_app. simpl. lia.
Qed.

Theorem offset_to_position_exact : forall t k,
  offset_to_position t (blen (firstn k t))
  = Some (line_of (firstn k t), ulen (line_prefix (firstn k t))).
Proof.
  intros t k. pose proof (o2p_go_walk (firstn k t) (skipn k t) _ 0 0 0 [] eq_refl eq_refl) as H.
  rewrite firstn_skipn in H. exact H.
Qed.

Lemma o2p_go_some_boundary : forall t off cur line units p,
  o2p_go t off cur line units = Some p -> exists k, off = cur + blen (firstn k t).
Proof.
  induction t as [|c t IH]; intros off cur line units p H.
  - simpl in H. destruct (Nat.eqb_spec cur off) as [He|Hne]; [|discriminate].
    exists 0. simpl. lia.
  - cbn [o2p_go] in H. destruct (Nat.eqb_spec cur off) as [He|Hne].
    + exists 0. simpl. lia.
    + destruct (off <? cur + utf8_len c); [discriminate|].
      destruct (c =? NL)%N; apply IH in H; destruct H as [k Hk]; exists (S k); simpl; lia.
Qed.

(* off a character boundary the conversion fails; the server unwraps it: the analysis thread dies *)
Theorem offset_to_position_none_off_boundary : forall t off,
  (forall k, off <> blen (firstn k t)) -> offset_to_position t off = None.
Proof.
  intros t off Hno. unfold offset_to_position.
  destruct (o2p_go t off 0 0 0) as [p|] eqn:H; [|reflexivity].
  apply o2p_go_some_boundary in H. destruct H as [k Hk]. exfalso. apply (Hno k). lia.
Qed.

Lemma drop_lines_0 : forall t off, drop_lines t 0 off = Some (t, off).
Proof. intros t off. destruct t; reflexivity. Qed.

Lemma drop_lines_nonl : forall acc c r n off, no_nl acc = true -> (c =? NL)%N = true ->
  drop_lines (acc ++ c :: r) (S n) off = drop_lines r n (off + blen acc + utf8_len c).
Proof.
  induction acc as [|d acc IH]; intros c r n off Hn Hc.
  - simpl. rewrite Hc. f_equal. lia.
  - destruct (no_nl_cons d acc Hn) as [Hd Ha].
    simpl. rewrite Hd, (IH c r n _ Ha Hc). f_equal. lia.
Qed.

(* walking a prefix ends in the line whose start drop_lines finds, holding the walked part of it *)
Lemma walk_inv : forall pre suf line acc off,
  no_nl acc = true ->
  let w := walk pre line acc in
  no_nl (snd w) = true
  /\ exists n s, fst w = line + n /\ drop_lines (acc ++ pre ++ suf) n off = Some (snd w ++ suf, s)
                 /\ s + blen (snd w) = off + blen acc + blen pre.
Proof.
  induction pre as [|c p IH]; intros suf line acc off Hacc; simpl.
  - split; [exact Hacc|]. exists 0, off. rewrite drop_lines_0. repeat split; lia.
  - destruct (c =? NL)%N eqn:Hc.
    + destruct (IH suf (S line) [] (off + blen acc + utf8_len c) eq_refl)
        as (Ha & n & s & Hl & Hd & Hs).
      split; [exact Ha|]. exists (S n), s.
      rewrite (drop_lines_nonl acc c (p ++ suf) n off Hacc Hc). simpl in Hd, Hs.
      repeat split; [lia|exact Hd|lia].
    + assert (Hacc' : no_nl (acc ++ [c]) = true).
      { unfold no_nl. rewrite forallb_app. simpl. rewrite Hc. apply andb_true_iff. auto. }
      destruct (IH suf line (acc ++ [c]) off Hacc') as (Ha & n & s & Hl & Hd & Hs).
      split; [exact Ha|]. exists n, s. rewrite <- app_assoc in Hd. rewrite blen_app in Hs.
      simpl in Hs. repeat split; [exact Hl|exact Hd|lia].
Qed.

Lemma drop_lines_prefix : forall pre suf,
  no_nl (line_prefix pre) = true
  /\ exists s, drop_lines (pre ++ suf) (line_of pre) 0 = Some (line_prefix pre ++ suf, s)
               /\ s + blen (line_prefix pre) = blen pre.
Proof.
  intros pre suf. destruct (walk_inv pre suf 0 [] 0 eq_refl) as (Ha & n & s & Hl & Hd & Hs).
  unfold line_of, line_prefix. rewrite Hl. eauto.
Qed.

(* [k] may be the end of the text; the '\r' of a "\r\n" counts as part of the line *)
Theorem offset_to_position_inside : forall t k,
  exists l c ln, offset_to_position t (blen (firstn k t)) = Some (l, c)
                 /\ nth_error (split_nl t) l = Some ln /\ c <= ulen ln.
Proof.
  intros t k. rewrite offset_to_position_exact.
  destruct (drop_lines_prefix (firstn k t) (skipn k t)) as (Ha & s & Hd & _).
  rewrite firstn_skipn in Hd.
  pose proof (drop_lines_spec t (line_of (firstn k t)) 0) as Hl. rewrite Hd in Hl.
  destruct Hl as (_ & _ & _ & Hn & _). rewrite (first_line_app _ _ Ha) in Hn.
  eexists _, _, _. split; [reflexivity|]. split; [exact Hn|]. rewrite ulen_app. lia.
Qed.

Lemma scan_exact : forall a suf off u,
  no_nl a = true -> no_cr a = true -> scan (a ++ suf) off u (u + ulen a) = off + blen a.
Proof.
  induction a as [|c a IH]; intros suf off u Hn Hr.
  - simpl. rewrite Nat.add_0_r. destruct suf as [|d suf]; simpl; [lia|].
    rewrite Nat.leb_refl. simpl. lia.
  - destruct (no_nl_cons c a Hn) as [Hcn Hn'].
    apply andb_true_iff in Hr as [Hcr Hr]. apply negb_true_iff in Hcr.
    pose proof (utf16_len_pos c) as Hpos.
    simpl. rewrite Hcn, Hcr.
    destruct (Nat.leb_spec (u + (utf16_len c + ulen a)) u) as [Hl|_]; [lia|]. simpl.
    rewrite Nat.add_assoc, (IH suf _ _ Hn' Hr). lia.
Qed.

(* side condition: no '\r' between the start of the offset's line and the offset.  In a text whose
   only '\r' are those of "\r\n" this excludes exactly the offset between '\r' and '\n'. *)
Theorem round_trip : forall t k l c,
  no_cr (line_prefix (firstn k t)) = true ->
  offset_to_position t (blen (firstn k t)) = Some (l, c) ->
  position_to_offset t l c = blen (firstn k t).
Proof.
  intros t k l c Hcr Ho. rewrite offset_to_position_exact in Ho. injection Ho as <- <-.
  destruct (drop_lines_prefix (firstn k t) (skipn k t)) as (Ha & s & Hd & Hs).
  rewrite firstn_skipn in Hd. unfold position_to_offset. rewrite Hd.
  rewrite (scan_exact _ _ s 0 Ha Hcr). exact Hs.
Qed.

(* "a\r\n": the boundary between '\r' and '\n' converts to (0, 2) - one unit behind the line
   "a" as an editor counts it - and does not convert back *)
Lemma round_trip_refuted_inside_crlf :
  let t := [97; 13; 10]%N in
  offset_to_position t 2 = Some (0, 2) /\ position_to_offset t 0 2 = 1.
Proof. vm_compute. split; reflexivity. Qed.

(* a lone '\r' is a line terminator of the protocol, not of the server: "a\rb", the client's
   line 1 does not exist for the server (-> end of the document), and 'b' is reported on line 0 *)
Lemma lone_cr_is_not_a_line_end :
  let t := [97; 13; 98]%N in
  position_to_offset t 1 0 = 3 /\ offset_to_position t 2 = Some (0, 2) /\ position_to_offset t 0 2 = 1.
Proof. vm_compute. repeat split; reflexivity. Qed.

(* inside a surrogate pair: rounded up behind the character *)
Lemma mid_surrogate_rounds_up :
  let t := [97; 128512; 98]%N in
  position_to_offset t 0 1 = 1 /\ position_to_offset t 0 2 = 5 /\ position_to_offset t 0 3 = 5.
Proof. vm_compute. repeat split; reflexivity. Qed.

(* offsets inside a character or behind the end do not convert (span_to_range panics) *)
Lemma offset_to_position_refuted_off_boundary :
  offset_to_position [233; 98]%N 1 = None /\ offset_to_position [233; 98]%N 4 = None.
Proof. vm_compute. split; reflexivity. Qed.

(* non-vacuity: "é😀\r\nb😀" - two-byte, astral, "\r\n", last line without newline *)
Definition ex_text : text := [233; 128512; 13; 10; 98; 128512]%N.

Example ex_positions :
  blen ex_text = 13 /\ split_nl ex_text = [[233; 128512; 13]; [98; 128512]]%N
  /\ map (fun k => offset_to_position ex_text (blen (firstn k ex_text))) [0; 1; 2; 3; 4; 5; 6]
     = [Some (0, 0); Some (0, 1); Some (0, 3); Some (0, 4); Some (1, 0); Some (1, 1); Some (1, 3)]
  /\ map (fun p => position_to_offset ex_text (fst p) (snd p))
         [(0, 0); (0, 1); (0, 2); (0, 3); (0, 4); (0, 99); (1, 0); (1, 2); (1, 3); (1, 4); (2, 0)]
     = [0; 2; 6; 6; 6; 6; 8; 13; 13; 13; 13].
Proof. vm_compute. repeat split; reflexivity. Qed.

Example ex_round_trip_hypothesis :
  forallb (fun k => no_cr (line_prefix (firstn k ex_text))) [0; 1; 2; 4; 5; 6] = true
  /\ no_cr (line_prefix (firstn 3 ex_text)) = false.
Proof. vm_compute. split; reflexivity. Qed.
