(* The interpreter as a function of its fuel: unfolding equations at [S fuel] (and, for the two
   lookups they go through, [pick_arm] and [find_rule], that what a [forallb] says of every arm or
   rule holds of the one found), and C03, the meaning of fuel: once the interpreter returns anything
   but "out of fuel", it returns the same result for every larger fuel.  Hence a run either has a
   definite result (tree, panic, stuck) or exhausts every fuel - non-termination of the generated
   parser is the only behaviour [XFuel] stands for. *)
From Coq Require Import List Arith Bool.
From LV Require Import Cst Tree ABuild Runtime Exec.
Import ListNotations.

Section FM.
Variable cx : pctx.
Variable prog : program.
Variable orc : oracles.

Fixpoint pick_arm (st : pstate) (default : list stmt) (l : list (list tok * option guard * list stmt)) : list stmt :=
  match l with
  | [] => default
  | (pats, g, body) :: r =>
    if tok_in (cur st) pats &&
       match g with
       | None => true
       | Some GTrue => true
       | Some (GPred n) => o_pred orc n st
       end
    then body else pick_arm st default r
  end.

Lemma exec_match_eq f rec_of arms d e st :
  exec cx prog orc (S f) rec_of (SMatch arms d) e st = exec_block cx prog orc f rec_of (pick_arm st d arms) e st.
Proof.
  simpl. apply (f_equal (fun b => exec_block cx prog orc f rec_of b e st)). induction arms as [|[[p g] b] r IH]; [reflexivity|].
  cbn [pick_arm]. rewrite <- IH. reflexivity.
Qed.

Lemma pick_arm_forallb (P : list stmt -> bool) st d arms :
  forallb (fun a => P (snd a)) arms = true -> P d = true -> P (pick_arm st d arms) = true.
Proof.
  intros Ha Hd. induction arms as [|[[p g] b] r IH]; [exact Hd|].
  apply andb_prop in Ha as [Hb Hr]. cbn [pick_arm]. destruct (_ && _); [exact Hb|exact (IH Hr)].
Qed.

Lemma find_rule_forallb (F : rule_fn -> bool) r f :
  forallb (fun rf => F (snd rf)) (p_rules prog) = true -> find_rule prog r = Some f -> F f = true.
Proof.
  intros Hall. unfold find_rule. destruct (find (fun x => Nat.eqb (fst x) r) (p_rules prog)) as [x|] eqn:E; [|discriminate].
  intros [= <-]. exact (proj1 (forallb_forall _ _) Hall x (proj1 (find_some _ _ E))).
Qed.

Lemma exec_loop_eq f rec_of b e st :
  exec cx prog orc (S f) rec_of (SLoop b) e st =
  match exec_block cx prog orc f rec_of b e st with
  | XOk (o, e', st') =>
    match o with
    | ONormal | OContinue => exec cx prog orc f rec_of (SLoop b) e' st'
    | OBreak => XOk (ONormal, e', st')
    | ORetNone => XOk (ORetNone, e', st')
    | ORet => XOk (ORet, e', st')
    end
  | r => r
  end.
Proof. reflexivity. Qed.

Lemma exec_block_eq f rec_of b e st :
  exec_block cx prog orc (S f) rec_of b e st = exec_seq cx prog orc f rec_of (length e) b e st.
Proof. reflexivity. Qed.

Lemma exec_seq_cons f rec_of n s r e st :
  exec_seq cx prog orc (S f) rec_of n (s :: r) e st =
  match exec cx prog orc f rec_of s e st with
  | XOk (ONormal, e2, st2) => exec_seq cx prog orc f rec_of n r e2 st2
  | XOk (o, e2, st2) => XOk (o, env_leave n e2, st2)
  | r' => r'
  end.
Proof. reflexivity. Qed.

Lemma call_fn_S fuel f st :
  call_fn cx prog orc (S fuel) f st =
  match exec_block cx prog orc fuel
          (match fn_rec f with Some (has_bp, body) => Some (fn_opt f, has_bp, body) | None => None end)
          (fn_body f) [] st with
  | XOk (o, _, st') => XOk (match o with ORetNone => false | _ => true end, st')
  | XPanic w => XPanic w
  | XFuel => XFuel
  | XStuck w => XStuck w
  end.
Proof. reflexivity. Qed.

Definition not_fuel {A} (r : xres A) : Prop := match r with XFuel => False | _ => True end.

Definition fuel_le {A} (r r' : xres A) : Prop := not_fuel r -> r' = r.

Lemma fuel_le_refl {A} (r : xres A) : fuel_le r r.
Proof. intros _. reflexivity. Qed.

Lemma fuel_le_bind {A B} (r r' : xres A) (k k' : A -> xres B) :
  fuel_le r r' -> (forall a, fuel_le (k a) (k' a)) ->
  fuel_le match r with XOk a => k a | XPanic w => XPanic w | XFuel => XFuel | XStuck w => XStuck w end
          match r' with XOk a => k' a | XPanic w => XPanic w | XFuel => XFuel | XStuck w => XStuck w end.
Proof.
  intros Hr Hk Hn. destruct r; try contradiction; rewrite (Hr I); [apply Hk; exact Hn|reflexivity..].
Qed.

Theorem fuel_mono f1 : forall f2, f1 <= f2 ->
  (forall rec_of s e st, fuel_le (exec cx prog orc f1 rec_of s e st) (exec cx prog orc f2 rec_of s e st))
  /\ (forall rec_of b e st,
      fuel_le (exec_block cx prog orc f1 rec_of b e st) (exec_block cx prog orc f2 rec_of b e st))
  /\ (forall rec_of n l e st,
      fuel_le (exec_seq cx prog orc f1 rec_of n l e st) (exec_seq cx prog orc f2 rec_of n l e st))
  /\ (forall rec_of sv sel sk alts lp last m e1 st1,
      fuel_le (exec_alts cx prog orc f1 rec_of sv sel sk alts lp last m e1 st1)
              (exec_alts cx prog orc f2 rec_of sv sel sk alts lp last m e1 st1))
  /\ (forall f st, fuel_le (call_fn cx prog orc f1 f st) (call_fn cx prog orc f2 f st)).
Proof.
  induction f1 as [|f1 IH]; intros f2 Hle.
  { split; [|split; [|split; [|split]]]; intros; intros []. }
  destruct f2 as [|f2]; [destruct (Nat.nle_succ_0 _ Hle)|]. apply le_S_n in Hle. destruct (IH f2 Hle) as (IHe & IHb & IHs & IHa & IHc).
  split; [|split; [|split; [|split]]].
  - intros rec_of s e st. destruct s; try apply fuel_le_refl; simpl.
    + (* SCall *) destruct (find_rule prog r); [|apply fuel_le_refl].
      apply fuel_le_bind; [apply IHc|intros; apply fuel_le_refl].
    + (* SRec *) destruct rec_of as [[[opt hb] body]|]; [|apply fuel_le_refl].
      destruct (env_get e v); [|apply fuel_le_refl].
      apply fuel_le_bind; [apply IHb|intros; apply fuel_le_refl].
    + (* SIfNotElide *) destruct (env_get e VElide) as [[|n]|]; try apply fuel_le_refl. apply IHb.
    + (* SMatch *) apply IHb.
    + (* SLoop *) apply fuel_le_bind; [apply IHb|].
      intros [[[] e1] s1]; try apply fuel_le_refl; apply IHe.
    + (* SOrdChoice *)
      destruct (if save_elide then _ else _); [|apply fuel_le_refl].
      destruct (if save_kind then _ else _); [|apply fuel_le_refl].
      destruct (p_get_state st). apply IHa.
  - intros rec_of b e st. apply IHs.
  - intros rec_of n l e st. destruct l; [apply fuel_le_refl|].
    rewrite !exec_seq_cons. apply fuel_le_bind; [apply IHe|].
    intros [[[] e1] s1]; try apply fuel_le_refl. apply IHs.
  - intros rec_of sv sel sk alts lp last m e1 st1. destruct alts as [|[pats body] r]; simpl.
    + destruct (tok_in _ lp); [|apply fuel_le_refl].
      apply fuel_le_bind; [apply IHb|intros; apply fuel_le_refl].
    + destruct (tok_in _ pats); [|apply IHa].
      apply fuel_le_bind; [apply IHb|].
      intros [[[] e2] s2]; try apply fuel_le_refl.
      destruct (if fst sel then _ else _) as [e3|]; [|apply fuel_le_refl].
      destruct (if fst sk then _ else _); [apply IHa|apply fuel_le_refl].
  - intros f st. rewrite !call_fn_S. apply fuel_le_bind; [apply IHb|intros; apply fuel_le_refl].
Qed.

Theorem parse_entry_fuel_irrelevant f1 f2 r root msg :
  f1 <= f2 -> not_fuel (parse_entry cx prog orc f1 r root msg) ->
  parse_entry cx prog orc f2 r root msg = parse_entry cx prog orc f1 r root msg.
Proof.
  intros Hle. unfold parse_entry.
  destruct (p_open init_state) as [[m st0]|w]; [|apply fuel_le_refl].
  destruct (find_rule prog r) as [f|]; [|apply fuel_le_refl].
  apply fuel_le_bind; [apply (fuel_mono f1 f2 Hle)|intros; apply fuel_le_refl].
Qed.

End FM.
