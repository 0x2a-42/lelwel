(* C09, follow sets: the textbook rules for FOLLOW over the EBNF operators of a lelwel
   grammar (relative to a first-set map [fi]), the boolean closure certificate, and
   completeness: a closed map contains every token the rules derive.
   The empty-word marker in follow sets is ignored, as the property says.
   Predict sets: predict is first, extended by follow when the node is nullable.
   Then the implementation side.  The follow sets a visit of Sema.follow_regex computes depend neither
   on the local-follow sets nor on the rule that is being swept: [follow_fo] is that component of
   follow_regex on its own, and all reasoning about follow sets (here and in FollowClosed.v) is about
   it (section Visit).  Soundness (section Sound): every token that a visit puts into a follow set is
   derivable by the rules; hence so is every token in the result of the iterated analysis. *)
From Coq Require Import List Arith Bool.
From LV Require Import Sema SetLemmas FirstSpec.
Import ListNotations.

Section Spec.
Variable g : grammar.
Variable fi : smap.

Definition nullable_fi (x : regex) : Prop := mem Eps (get fi (rid_of x)) = true.
Definition first_fi (x : regex) (a : tokn) : Prop := mem (T a) (get fi (rid_of x)) = true.

Inductive Fol : regex -> tokn -> Prop :=
| F_start sb : body_of g (g_start g) = Some sb -> Fol sb (g_eof g)
| F_part_at_start sb p t pb :
    body_of g (g_start g) = Some sb -> In (p, t) (g_parts g) -> body_of g p = Some pb -> Fol sb t
| F_part sb p t pb :
    body_of g (g_start g) = Some sb -> In (p, t) (g_parts g) -> body_of g p = Some pb -> Fol pb t
| F_rule i r b a :
    In (RRule i r) (nodes_of g) -> body_of g r = Some b -> Fol (RRule i r) a -> Fol b a
| F_cat_first i ops pre x mid y post a :
    In (RCat i ops) (nodes_of g) -> ops = pre ++ x :: mid ++ y :: post ->
    Forall nullable_fi mid -> first_fi y a -> Fol x a
| F_cat_last i ops pre x post a :
    In (RCat i ops) (nodes_of g) -> ops = pre ++ x :: post ->
    Forall nullable_fi post -> Fol (RCat i ops) a -> Fol x a
| F_alt i ops x a : In (RAlt i ops) (nodes_of g) -> In x ops -> Fol (RAlt i ops) a -> Fol x a
| F_choice i ops x a : In (RChoice i ops) (nodes_of g) -> In x ops -> Fol (RChoice i ops) a -> Fol x a
| F_star i x a : In (RStar i x) (nodes_of g) -> Fol (RStar i x) a -> Fol x a
| F_star_again i x a : In (RStar i x) (nodes_of g) -> first_fi x a -> Fol x a
| F_plus i x a : In (RPlus i x) (nodes_of g) -> Fol (RPlus i x) a -> Fol x a
| F_plus_again i x a : In (RPlus i x) (nodes_of g) -> mem (T a) (get fi i) = true -> Fol x a
| F_opt i x a : In (ROpt i x) (nodes_of g) -> Fol (ROpt i x) a -> Fol x a
| F_paren i x a : In (RParen i (Some x)) (nodes_of g) -> Fol (RParen i (Some x)) a -> Fol x a.

Definition is_tok (s : sym) : bool := match s with T _ => true | Eps => false end.
Definition subset_tok (s1 s2 : set) : bool := forallb (fun s => negb (is_tok s) || mem s s2) s1.

Lemma subset_tok_spec s1 s2 : subset_tok s1 s2 = true <-> forall a, mem (T a) s1 = true -> mem (T a) s2 = true.
Proof.
  unfold subset_tok. rewrite forallb_forall. split.
  - intros H a Ha. apply mem_In in Ha. specialize (H _ Ha). cbn in H. assumption.
  - intros H s Hs. destruct s as [|a]; [reflexivity|]. cbn. apply H. apply mem_In. assumption.
Qed.

Lemma subset_tok_mem s1 s2 a : subset_tok s1 s2 = true -> mem (T a) s1 = true -> mem (T a) s2 = true.
Proof. intros H. apply subset_tok_spec. exact H. Qed.

(* what may follow the operands in front of [post], given the follow set [base] of the sequence *)
Fixpoint seq_follow (base : set) (post : list regex) : set :=
  match post with
  | [] => base
  | op :: r =>
    let f := get fi (rid_of op) in
    if mem Eps f then union (seq_follow base r) f else f
  end.

Fixpoint cat_closed (fo : smap) (base : set) (ops : list regex) : bool :=
  match ops with
  | [] => true
  | x :: post => subset_tok (seq_follow base post) (get fo (rid_of x)) && cat_closed fo base post
  end.

Definition fol_closed_at (fo : smap) (x : regex) : bool :=
  let s := get fo (rid_of x) in
  match x with
  | RRule _ r => match body_of g r with Some b => subset_tok s (get fo (rid_of b)) | None => true end
  | RCat _ ops => cat_closed fo s ops
  | RAlt _ ops | RChoice _ ops => forallb (fun o => subset_tok s (get fo (rid_of o))) ops
  | RStar _ o => subset_tok s (get fo (rid_of o)) && subset_tok (get fi (rid_of o)) (get fo (rid_of o))
  | RPlus i o => subset_tok s (get fo (rid_of o)) && subset_tok (get fi i) (get fo (rid_of o))
  | ROpt _ o => subset_tok s (get fo (rid_of o))
  | RParen _ (Some o) => subset_tok s (get fo (rid_of o))
  | _ => true
  end.

Definition fol_closed (fo : smap) : bool :=
  match body_of g (g_start g) with
  | Some sb =>
    mem (T (g_eof g)) (get fo (rid_of sb))
    && forallb (fun p => match body_of g (fst p) with
                         | Some pb => mem (T (snd p)) (get fo (rid_of sb)) && mem (T (snd p)) (get fo (rid_of pb))
                         | None => true
                         end) (g_parts g)
  | None => true
  end
  && forallb (fol_closed_at fo) (nodes_of g).

Lemma fol_closed_spec fo : fol_closed fo = true <->
  (forall sb, body_of g (g_start g) = Some sb ->
     mem (T (g_eof g)) (get fo (rid_of sb)) = true
     /\ forall p t pb, In (p, t) (g_parts g) -> body_of g p = Some pb ->
          mem (T t) (get fo (rid_of sb)) = true /\ mem (T t) (get fo (rid_of pb)) = true)
  /\ forall x, In x (nodes_of g) -> fol_closed_at fo x = true.
Proof.
  unfold fol_closed. split.
  - intros H. apply andb_prop in H. destruct H as (Hs & Hn). split; [|apply forallb_forall, Hn].
    intros sb Eb. rewrite Eb in Hs. apply andb_prop in Hs. destruct Hs as (H1 & H2). split; [exact H1|].
    intros p t pb Hp Hpb. apply (proj1 (forallb_forall _ _) H2) in Hp. cbn [fst snd] in Hp.
    rewrite Hpb in Hp. apply andb_prop, Hp.
  - intros (Hs & Hn). apply andb_true_intro. split; [|apply forallb_forall, Hn].
    destruct (body_of g (g_start g)) as [sb|]; [|reflexivity]. destruct (Hs sb eq_refl) as (H1 & H2).
    apply andb_true_intro. split; [exact H1|]. apply forallb_forall. intros [p t] Hp. cbn [fst snd].
    destruct (body_of g p) as [pb|] eqn:Ep; [|reflexivity]. apply andb_true_intro, (H2 p t pb Hp Ep).
Qed.

Lemma seq_follow_first base mid y post a :
  Forall nullable_fi mid -> first_fi y a -> mem (T a) (seq_follow base (mid ++ y :: post)) = true.
Proof.
  induction 1 as [|m r Hm _ IH]; intros Hy; cbn [app seq_follow].
  - unfold first_fi in Hy. destruct (mem Eps (get fi (rid_of y))); [apply mem_union; right|]; assumption.
  - unfold nullable_fi in Hm. rewrite Hm. apply mem_union. left. apply IH. assumption.
Qed.

Lemma seq_follow_last base post a :
  Forall nullable_fi post -> mem (T a) base = true -> mem (T a) (seq_follow base post) = true.
Proof.
  induction 1 as [|m r Hm _ IH]; intros Hb; cbn [seq_follow]; [assumption|].
  unfold nullable_fi in Hm. rewrite Hm. apply mem_union. left. apply IH. assumption.
Qed.

Definition SeqF (base : set) (l : list regex) (a : tokn) : Prop :=
  (exists mid y post, l = mid ++ y :: post /\ Forall nullable_fi mid /\ first_fi y a)
  \/ (Forall nullable_fi l /\ mem (T a) base = true).

Lemma seq_follow_sound base a : forall l, mem (T a) (seq_follow base l) = true -> SeqF base l a.
Proof.
  induction l as [|op r IH]; cbn [seq_follow]; intros Ha; [right; split; [constructor|exact Ha]|].
  assert (Hown : mem (T a) (get fi (rid_of op)) = true -> SeqF base (op :: r) a).
  { intros Hf. left. exists [], op, r. split; [reflexivity|]. split; [constructor|exact Hf]. }
  destruct (mem Eps (get fi (rid_of op))) eqn:Ee; [|auto].
  apply mem_union in Ha. destruct Ha as [Ha|Ha]; [|auto].
  destruct (IH Ha) as [(mid & y & post & -> & Hmid & Hy)|(Hall & Hb)].
  - left. exists (op :: mid), y, post. split; [reflexivity|]. split; [constructor; assumption|assumption].
  - right. split; [constructor; assumption|assumption].
Qed.

Lemma cat_closed_at fo base pre x post :
  cat_closed fo base (pre ++ x :: post) = true ->
  subset_tok (seq_follow base post) (get fo (rid_of x)) = true.
Proof.
  induction pre as [|p r IH]; cbn [app cat_closed]; intros H; apply andb_prop in H; destruct H as (H1 & H2); auto.
Qed.

Theorem follow_complete fo : fol_closed fo = true ->
  forall y a, Fol y a -> mem (T a) (get fo (rid_of y)) = true.
Proof.
  intros H. apply fol_closed_spec in H. destruct H as (Hs & Hn).
  induction 1 as [sb Hb|sb p t pb Hb Hp Hpb|sb p t pb Hb Hp Hpb|i r b a Hin Hb _ IH
                  |i ops pre x mid y post a Hin -> Hmid Hy|i ops pre x post a Hin -> Hpost _ IH
                  |i ops x a Hin Hx _ IH|i ops x a Hin Hx _ IH|i x a Hin _ IH|i x a Hin Hf
                  |i x a Hin _ IH|i x a Hin Hf|i x a Hin _ IH|i x a Hin _ IH].
  1: apply (Hs sb Hb).
  1-2: apply (proj2 (Hs sb Hb) p t pb Hp Hpb).
  all: specialize (Hn _ Hin); cbn [fol_closed_at rid_of] in Hn.
  - rewrite Hb in Hn. eapply subset_tok_mem; eassumption.
  - apply cat_closed_at in Hn. eapply subset_tok_mem; [exact Hn|]. apply seq_follow_first; assumption.
  - apply cat_closed_at in Hn. eapply subset_tok_mem; [exact Hn|]. apply seq_follow_last; assumption.
  - rewrite forallb_forall in Hn. eapply subset_tok_mem; [apply Hn, Hx|exact IH].
  - rewrite forallb_forall in Hn. eapply subset_tok_mem; [apply Hn, Hx|exact IH].
  - apply andb_prop in Hn. eapply subset_tok_mem; [apply (proj1 Hn)|exact IH].
  - apply andb_prop in Hn. eapply subset_tok_mem; [apply (proj2 Hn)|exact Hf].
  - apply andb_prop in Hn. eapply subset_tok_mem; [apply (proj1 Hn)|exact IH].
  - apply andb_prop in Hn. eapply subset_tok_mem; [apply (proj2 Hn)|exact Hf].
  - eapply subset_tok_mem; eassumption.
  - eapply subset_tok_mem; eassumption.
Qed.

End Spec.

Lemma get_calc_predict fi fo k :
  get (calc_predict fi fo) k =
  if mem Eps (get fi k) then union (remove Eps (get fi k)) (get fo k) else get fi k.
Proof.
  unfold calc_predict. induction fi as [|[k' f] r IH]; cbn [map get].
  - reflexivity.
  - destruct (Nat.eqb_spec k k') as [->|Hne]; [reflexivity|assumption].
Qed.

Theorem predict_spec fi fo k s :
  mem s (get (calc_predict fi fo) k) = true <->
  (s <> Eps /\ mem s (get fi k) = true)
  \/ (mem Eps (get fi k) = true /\ mem s (get fo k) = true).
Proof.
  rewrite get_calc_predict. destruct (mem Eps (get fi k)) eqn:E.
  - rewrite mem_union, mem_remove. split.
    + intros [(H1 & H2)|H]; auto.
    + intros [(H1 & H2)|(_ & H)]; auto.
  - split.
    + intros H. left. split; [|assumption]. intros ->. congruence.
    + intros [(_ & H)|(H & _)]; [assumption|discriminate].
Qed.


Section Visit.
Variable g : grammar.
Variable fi : smap.

(* the set handed to the operand in front of the suffix [l] of a sequence whose follow set is [base]:
   [seq_follow] without the empty-word marker *)
Fixpoint cat_fl (base : set) (l : list regex) : set :=
  match l with
  | [] => base
  | op :: r =>
    let opf := get fi (rid_of op) in
    if mem Eps opf then remove Eps (union (cat_fl base r) opf) else opf
  end.

Lemma cat_fl_tok base a : forall l, mem (T a) (cat_fl base l) = true <-> mem (T a) (seq_follow fi base l) = true.
Proof.
  induction l as [|op r IH]; cbn [cat_fl seq_follow]; [reflexivity|].
  destruct (mem Eps (get fi (rid_of op))); [|reflexivity].
  rewrite mem_remove, !mem_union, IH. split; [intros (_ & H); exact H|intros H; split; [discriminate|exact H]].
Qed.

Section Loops.
Variable visit : regex -> smap -> smap.

Definition kids_fo (f : set -> set) (l : list regex) (fo : smap) : smap :=
  fold_left (fun m o => visit o (upd m (rid_of o) f)) l fo.

Fixpoint cat_fo (base : set) (l : list regex) (fo : smap) : smap :=
  match l with
  | [] => fo
  | o :: r => visit o (upd (cat_fo base r fo) (rid_of o) (fun s => union s (cat_fl base r)))
  end.
End Loops.

Fixpoint follow_fo (x : regex) (fo : smap) {struct x} : smap :=
  let id := rid_of x in
  let base := get fo id in
  let fo0 := upd fo id (fun s => s) in
  match x with
  | RRule _ r =>
    match body_of g r with
    | Some b =>
      let fo1 := upd fo (rid_of b) (fun s => s) in
      upd (upd fo1 id (fun s => s)) (rid_of b) (fun s => union s (get fo1 id))
    | None => fo
    end
  | RCat _ ops => cat_fo follow_fo base ops fo0
  | RAlt _ ops | RChoice _ ops => kids_fo follow_fo (fun s => union s base) ops fo0
  | RStar _ o => kids_fo follow_fo (fun s => union (remove Eps (union s (get fi (rid_of o)))) base) [o] fo0
  | RPlus _ o => kids_fo follow_fo (fun s => union (union s (get fi id)) base) [o] fo0
  | ROpt _ o | RParen _ (Some o) => kids_fo follow_fo (fun s => union s base) [o] fo0
  | _ => fo
  end.

(* the loops of follow_regex as named functions *)
Definition cat_fgo (rb : nat) :=
  fix go (l : list regex) (st : fstate) (follow : set) : fstate * set :=
    match l with
    | [] => (st, follow)
    | op :: r =>
      let '(st1, follow1) := go r st follow in
      let '(fo, lf) := st1 in
      let fo1 := upd fo (rid_of op) (fun s => union s follow1) in
      let opf := get fi (rid_of op) in
      let follow' := if mem Eps opf then remove Eps (union follow1 opf) else opf in
      (follow_regex g fi rb op (fo1, lf), follow')
    end.

Definition alt_fgo (rb : nat) (follow : set) :=
  fix go (l : list regex) (st : fstate) : fstate :=
    match l with
    | [] => st
    | op :: r =>
      let '(fo, lf) := st in
      go r (follow_regex g fi rb op (upd fo (rid_of op) (fun s => union s follow), lf))
    end.

Definition fst_is_follow_fo (o : regex) : Prop :=
  forall rb fo lf, exists lf', follow_regex g fi rb o (fo, lf) = (follow_fo o fo, lf').

Lemma cat_fgo_proj rb base l : Forall fst_is_follow_fo l -> forall fo lf,
  exists lf', cat_fgo rb l (fo, lf) base = (cat_fo follow_fo base l fo, lf', cat_fl base l).
Proof.
  induction 1 as [|o r Ho _ IH]; intros fo lf; cbn [cat_fgo cat_fo cat_fl]; [exists lf; reflexivity|].
  destruct (IH fo lf) as (lf2 & ->).
  destruct (Ho rb (upd (cat_fo follow_fo base r fo) (rid_of o) (fun s => union s (cat_fl base r))) lf2) as (lf' & ->).
  exists lf'. reflexivity.
Qed.

Lemma alt_fgo_proj rb base l : Forall fst_is_follow_fo l -> forall fo lf,
  exists lf', alt_fgo rb base l (fo, lf) = (kids_fo follow_fo (fun s => union s base) l fo, lf').
Proof.
  induction 1 as [|o r Ho _ IH]; intros fo lf; cbn [alt_fgo kids_fo fold_left]; [exists lf; reflexivity|].
  destruct (Ho rb (upd fo (rid_of o) (fun s => union s base)) lf) as (lf2 & ->). apply IH.
Qed.

Lemma follow_regex_proj : forall x, fst_is_follow_fo x.
Proof.
  induction x as [i t|i r|i ops IH|i ops IH|i ops IH|i o IH|i o IH|i o IH|i|i o IH|i k] using regex_ind';
    intros rb fo lf; try (exists lf; reflexivity); try apply IH.
  - cbn [follow_regex follow_fo rid_of]. destruct (body_of g r); eexists; reflexivity.
  - destruct (cat_fgo_proj rb (get fo i) ops IH (upd fo i (fun s => s)) lf) as (lf' & E).
    exists lf'. change (follow_regex g fi rb (RCat i ops) (fo, lf))
      with (fst (cat_fgo rb ops (upd fo i (fun s => s), lf) (get fo i))). rewrite E. reflexivity.
  - apply (alt_fgo_proj rb (get fo i) ops IH).
  - apply (alt_fgo_proj rb (get fo i) ops IH).
Qed.

Lemma follow_regex_fst rb x fo lf : fst (follow_regex g fi rb x (fo, lf)) = follow_fo x fo.
Proof. destruct (follow_regex_proj x rb fo lf) as (lf' & ->). reflexivity. Qed.

Definition blist : list regex :=
  flat_map (fun ru => match r_body ru with Some b => [b] | None => [] end) (g_rules g).

Definition sweep : smap -> smap := kids_fo follow_fo (fun s => s) blist.

Lemma follow_pass_fst st : fst (follow_pass g fi st) = sweep (fst st).
Proof.
  unfold follow_pass, sweep, blist. revert st.
  induction (g_rules g) as [|ru l IH]; intros [fo lf]; cbn [fold_left flat_map]; [reflexivity|].
  rewrite IH. destruct (r_body ru) as [b|]; [|reflexivity].
  rewrite follow_regex_fst. reflexivity.
Qed.

Lemma flat_map_bodies {C} (h : regex -> list C) l :
  flat_map (fun ru => match r_body ru with Some b => h b | None => [] end) l
  = flat_map h (flat_map (fun ru => match r_body ru with Some b => [b] | None => [] end) l).
Proof.
  induction l as [|ru l IH]; cbn [flat_map]; [reflexivity|]. rewrite flat_map_app, IH.
  destruct (r_body ru); cbn [flat_map]; rewrite ?app_nil_r; reflexivity.
Qed.

Lemma nodes_blist : nodes_of g = flat_map subs blist.
Proof. apply flat_map_bodies. Qed.

Lemma body_follow_size_blist fo :
  body_follow_size g fo = list_sum (map (fun b => length (get fo (rid_of b))) blist).
Proof.
  unfold body_follow_size, blist. induction (g_rules g) as [|ru l IH]; [reflexivity|].
  cbn [map flat_map]. rewrite map_app, list_sum_app, <- IH.
  destruct (r_body ru); cbn [map list_sum fold_right]; rewrite ?Nat.add_0_r; reflexivity.
Qed.

Lemma iterate_follow_inv (I : smap -> Prop) : (forall fo, I fo -> I (sweep fo)) ->
  forall fuel st st', I (fst st) -> iterate_follow g fi fuel st = Some st' ->
  exists fo, I fo /\ fst st' = sweep fo /\ body_follow_size g (sweep fo) = body_follow_size g fo.
Proof.
  intros Hstep. induction fuel as [|fuel IH]; intros st st' HI H; cbn [iterate_follow] in H; [discriminate|].
  destruct (Nat.eqb_spec (body_follow_size g (fst (follow_pass g fi st))) (body_follow_size g (fst st))) as [He|_].
  - injection H as <-. exists (fst st). rewrite follow_pass_fst in *. auto.
  - apply (IH _ _ (eq_ind_r I (Hstep _ HI) (follow_pass_fst st)) H).
Qed.

Definition init_step (sb : regex) (fo : smap) (p : nat * tokn) : smap :=
  match body_of g (fst p) with
  | Some pb => upd (upd fo (rid_of sb) (add (T (snd p)))) (rid_of pb) (add (T (snd p)))
  | None => fo
  end.

Lemma follow_init_fst :
  fst (follow_init g) = match body_of g (g_start g) with
                        | Some sb => fold_left (init_step sb) (g_parts g) (upd [] (rid_of sb) (add (T (g_eof g))))
                        | None => []
                        end.
Proof. unfold follow_init. destruct (body_of g (g_start g)); reflexivity. Qed.

End Visit.

Section Sound.
Variable g : grammar.
Variable fi : smap.
Hypothesis Hwf : wf_ids g.

Notation Fol := (FollowSpec.Fol g fi).
Notation follow_fo := (follow_fo g fi).
Notation kids_fo := (kids_fo follow_fo).
Notation cat_fo := (cat_fo fi follow_fo).
Notation cat_fl := (cat_fl fi).
Notation sweep := (sweep g fi).

Definition FolS (y : regex) (s : sym) : Prop := match s with T a => Fol y a | Eps => True end.
Definition Just_fol : smap -> Prop := Just g FolS.

Lemma Fol_down x o s : In x (nodes_of g) -> In o (kids x) -> (forall i ops, x <> RCat i ops) -> FolS x s -> FolS o s.
Proof.
  intros Hx Ho Hc. destruct s as [|a]; [trivial|]. cbn [FolS]. intros Hf.
  destruct x as [| |i ops|i ops|i ops|i y|i y|i y|i [y|]|]; cbn [kids] in Ho; try contradiction.
  - destruct (Hc i ops eq_refl).
  - eapply F_alt; eassumption.
  - eapply F_choice; eassumption.
  - destruct Ho as [<-|[]]. eapply F_star; eassumption.
  - destruct Ho as [<-|[]]. eapply F_plus; eassumption.
  - destruct Ho as [<-|[]]. eapply F_opt; eassumption.
  - destruct Ho as [<-|[]]. eapply F_paren; eassumption.
Qed.

Definition fol_visit_Just (o : regex) : Prop := In o (nodes_of g) /\ forall fo, Just_fol fo -> Just_fol (follow_fo o fo).

Lemma kids_fo_Just f l :
  (forall o, In o l -> fol_visit_Just o /\ forall t s, mem s (f t) = true -> mem s t = true \/ FolS o s) ->
  forall fo, Just_fol fo -> Just_fol (kids_fo f l fo).
Proof.
  intros Hl. apply fold_left_inv. intros m o Ho HJ. destruct (Hl o Ho) as ((Hn & Hrec) & Hf).
  apply Hrec, Just_upd; [exact Hwf|exact HJ|exact Hn|apply Hf].
Qed.

Lemma cat_fo_Just id ops base :
  In (RCat id ops) (nodes_of g) ->
  (forall s, mem s base = true -> FolS (RCat id ops) s) ->
  forall l pre, ops = pre ++ l -> Forall fol_visit_Just l ->
  forall fo, Just_fol fo -> Just_fol (cat_fo base l fo).
Proof.
  intros Hcat Hbase. induction l as [|op r IH]; intros pre Hops Hl fo HJ; cbn [cat_fo]; [exact HJ|].
  apply Forall_cons_iff in Hl. destruct Hl as ((Hn & Hrec) & Hr).
  apply Hrec, Just_union; [exact Hwf|apply (IH (pre ++ [op])); [rewrite <- app_assoc; exact Hops|exact Hr|exact HJ]|exact Hn|].
  intros [|a] Ha; [exact I|]. subst ops.
  destruct (seq_follow_sound fi _ _ _ (proj1 (cat_fl_tok fi _ _ _) Ha)) as [(mid & y & post & -> & Hmid & Hy)|(Hall & Hb)].
  - eapply F_cat_first; [exact Hcat|reflexivity|exact Hmid|exact Hy].
  - eapply F_cat_last; [exact Hcat|reflexivity|exact Hall|apply (Hbase (T a)), Hb].
Qed.

Theorem follow_fo_Just : forall x, In x (nodes_of g) -> forall fo, Just_fol fo -> Just_fol (follow_fo x fo).
Proof.
  induction x as [x IH] using kids_ind. intros Hx fo HJ.
  assert (Hk : Forall fol_visit_Just (kids x)).
  { rewrite Forall_forall in *. intros o Ho. pose proof (kid_node g x o Hx Ho) as Hn. split; [exact Hn|apply IH; assumption]. }
  assert (Hdown : (forall i ops, x <> RCat i ops) -> forall o, In o (kids x) ->
            fol_visit_Just o /\ forall t s, mem s (union t (get fo (rid_of x))) = true -> mem s t = true \/ FolS o s).
  { intros Hc o Ho. rewrite Forall_forall in Hk. split; [apply Hk, Ho|]. intros t s Hs.
    apply mem_union in Hs. destruct Hs as [Hs|Hs]; [left; exact Hs|right].
    apply (Fol_down x o s Hx Ho Hc), (HJ x Hx), Hs. }
  pose proof (Just_touch g FolS fo (rid_of x) HJ) as HJ0. clear IH.
  pose proof (fun Hc => kids_fo_Just _ (kids x) (Hdown Hc) _ HJ0) as Hu.
  destruct x as [i t|i r|i ops|i ops|i ops|i o|i o|i o|i [o|]|i k]; cbn [follow_fo rid_of kids] in *;
    [exact HJ| | |apply Hu|apply Hu| | |apply Hu|apply Hu|exact HJ|exact HJ]; try discriminate.
  - destruct (body_of g r) as [b|] eqn:Eb; [|exact HJ].
    apply Just_union; [exact Hwf|apply Just_touch, Just_touch, HJ|exact (body_in_nodes g _ _ Eb)|].
    intros [|a] Ha; [exact I|]. rewrite get_upd_id in Ha. eapply F_rule; [exact Hx|exact Eb|]. apply (HJ _ Hx (T a)), Ha.
  - apply (cat_fo_Just i ops (get fo i) Hx (HJ _ Hx) ops [] eq_refl Hk _ HJ0).
  - destruct (Hdown ltac:(discriminate) o (or_introl eq_refl)) as (Ho & Hb).
    apply kids_fo_Just; [|exact HJ0]. intros o' [<-|[]]. split; [exact Ho|]. intros t s Hs.
    destruct (Hb _ _ Hs) as [Hs'|Hs']; [|right; exact Hs']. apply mem_remove in Hs'. destruct Hs' as (Hne & Hs').
    apply mem_union in Hs'. destruct Hs' as [Hs'|Hs']; [left; exact Hs'|right].
    destruct s as [|a]; [destruct (Hne eq_refl)|]. eapply F_star_again; [exact Hx|exact Hs'].
  - destruct (Hdown ltac:(discriminate) o (or_introl eq_refl)) as (Ho & Hb).
    apply kids_fo_Just; [|exact HJ0]. intros o' [<-|[]]. split; [exact Ho|]. intros t s Hs.
    destruct (Hb _ _ Hs) as [Hs'|Hs']; [|right; exact Hs'].
    apply mem_union in Hs'. destruct Hs' as [Hs'|Hs']; [left; exact Hs'|right].
    destruct s as [|a]; [exact I|]. eapply F_plus_again; [exact Hx|exact Hs'].
Qed.

Lemma sweep_Just fo : Just_fol fo -> Just_fol (sweep fo).
Proof.
  apply kids_fo_Just. intros b Hb. assert (Hn : In b (nodes_of g)).
  { rewrite (nodes_blist g). apply in_flat_map. exists b. split; [exact Hb|apply subs_self]. }
  split; [split; [exact Hn|apply follow_fo_Just, Hn]|auto].
Qed.

Lemma follow_init_Just : Just_fol (fst (follow_init g)).
Proof.
  pose proof (Just_empty g FolS) as H0.
  rewrite (follow_init_fst g). destruct (body_of g (g_start g)) as [sb|] eqn:Eb; [|exact H0].
  pose proof (body_in_nodes g _ _ Eb) as Hsb.
  apply fold_left_inv; [|apply Just_add; [exact Hwf|exact H0|exact Hsb|apply F_start, Eb]].
  intros fo [p t] Hin HJ. unfold init_step. cbn [fst snd]. destruct (body_of g p) as [pb|] eqn:Ep; [|exact HJ].
  apply Just_add; [exact Hwf|apply Just_add; [exact Hwf|exact HJ|exact Hsb|]|exact (body_in_nodes g _ _ Ep)|].
  - eapply F_part_at_start; eassumption.
  - eapply F_part; eassumption.
Qed.

Theorem follow_sound fuel fo lf :
  calc_follow g fi fuel = Some (fo, lf) ->
  forall y a, In y (nodes_of g) -> mem (T a) (get fo (rid_of y)) = true -> Fol y a.
Proof.
  unfold calc_follow. intros H.
  destruct (iterate_follow_inv g fi Just_fol sweep_Just _ _ _ follow_init_Just H) as (fo0 & HJ & E & _).
  cbn [fst] in E. rewrite E. intros y a Hy. exact (sweep_Just _ HJ y Hy (T a)).
Qed.

End Sound.
