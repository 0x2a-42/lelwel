(* C09, follow sets: the map that calc_follow returns is always closed under the follow
   inclusions (tokens), so the closure certificate [fol_closed] is a theorem.
   The loop stops when no *rule body* gained a token in the last sweep.  Inside a sweep the
   follow sets flow top-down: a node's set is written by its parent just before the node is
   visited and by nobody else afterwards (frame property, needs unique ids), except for rule
   bodies, which references elsewhere may extend - but then the loop does not stop.
   With soundness and completeness of the certificate (FollowSpec.v): the computed
   follow sets hold exactly the tokens the textbook rules derive. *)
From Coq Require Import List Arith Bool.
From LV Require Import Sema SetLemmas FirstSpec FirstCert FollowSpec.
Import ListNotations.

Definition tok_sub (s s' : set) : Prop := forall a, mem (T a) s = true -> mem (T a) s' = true.
Definition tok_le (m m' : smap) : Prop := forall k, tok_sub (get m k) (get m' k).

Lemma tok_sub_refl s : tok_sub s s. Proof. intros a H; exact H. Qed.
Lemma tok_sub_trans a b c : tok_sub a b -> tok_sub b c -> tok_sub a c. Proof. unfold tok_sub; auto. Qed.
Lemma tok_le_refl m : tok_le m m. Proof. intros k; apply tok_sub_refl. Qed.
Lemma tok_le_trans a b c : tok_le a b -> tok_le b c -> tok_le a c.
Proof. intros H1 H2 k. eapply tok_sub_trans; [apply H1|apply H2]. Qed.

Lemma tok_le_upd m k f : (forall s, tok_sub s (f s)) -> tok_le m (upd m k f).
Proof.
  intros H k'. destruct (Nat.eq_dec k' k) as [->|Hne].
  - rewrite get_upd_same. apply H.
  - rewrite get_upd_other by assumption. apply tok_sub_refl.
Qed.

Definition ndf (f : set -> set) : Prop := forall s, NoDup s -> NoDup (f s).

Definition tgrow (f : set -> set) : Prop := (forall s, tok_sub s (f s)) /\ ndf f.

Lemma good_tgrow f : good f -> tgrow f.
Proof. intros (H1 & H2). split; [intros s a; apply H1|exact H2]. Qed.

Lemma tgrow_star X Y : tgrow (fun s => union (remove Eps (union s X)) Y).
Proof.
  split; [|intros s H; apply NoDup_union, NoDup_remove, NoDup_union, H].
  intros s a H. apply mem_union. left. apply mem_remove. split; [discriminate|]. apply mem_union. left. exact H.
Qed.

Section Closed.
Variable g : grammar.
Variable fi : smap.

Notation follow_fo := (FollowSpec.follow_fo g fi).
Notation kids_fo := (FollowSpec.kids_fo follow_fo).
Notation cat_fo := (FollowSpec.cat_fo fi follow_fo).
Notation cat_fl := (FollowSpec.cat_fl fi).
Notation blist := (FollowSpec.blist g).
Notation sweep := (FollowSpec.sweep g fi).

Definition bodies : list nat :=
  flat_map (fun ru => match r_body ru with Some b => [rid_of b] | None => [] end) (g_rules g).

Lemma body_in_bodies r b : body_of g r = Some b -> In (rid_of b) bodies.
Proof.
  unfold body_of, nth_rule, bodies. destruct (nth_error (g_rules g) r) as [ru|] eqn:E; [|discriminate].
  intros Hb. apply in_flat_map. exists ru. split; [eapply nth_error_In; eassumption|]. rewrite Hb. left. reflexivity.
Qed.

Lemma bodies_blist : bodies = map rid_of blist.
Proof.
  unfold bodies, FollowSpec.blist. induction (g_rules g) as [|ru l IH]; cbn [flat_map]; [reflexivity|].
  rewrite map_app, IH. destruct (r_body ru); reflexivity.
Qed.

Definition ids (l : list regex) : list nat := map rid_of (flat_map subs l).

Lemma ids_app l1 l2 : ids (l1 ++ l2) = ids l1 ++ ids l2.
Proof. unfold ids. rewrite flat_map_app. apply map_app. Qed.

Lemma ids_cons o l : ids (o :: l) = ids [o] ++ ids l.
Proof. apply (ids_app [o] l). Qed.

Lemma ids_one o : ids [o] = rid_of o :: ids (kids o).
Proof. unfold ids. cbn [flat_map]. rewrite app_nil_r, subs_kids. reflexivity. Qed.

Lemma ids_incl l o : In o l -> incl (ids [o]) (ids l).
Proof.
  intros Ho. apply in_split in Ho. destruct Ho as (l1 & l2 & ->). rewrite ids_app, (ids_cons o l2).
  apply incl_appr, incl_appl, incl_refl.
Qed.

(* the frame property: outside [D] and the rule bodies nothing is written *)
Definition chain (D : list nat) (m m' : smap) : Prop :=
  tok_le m m' /\ (AllND m -> AllND m')
  /\ forall k, ~ In k D -> sub (get m k) (get m' k) /\ (~ In k bodies -> get m' k = get m k).

Lemma chain_refl D m : chain D m m.
Proof. split; [apply tok_le_refl|]. split; [auto|]. intros k _. split; [apply sub_refl|reflexivity]. Qed.

Lemma chain_tok {D m m'} : chain D m m' -> tok_le m m'.
Proof. intros H. apply H. Qed.

Lemma chain_nd {D m m'} : chain D m m' -> AllND m -> AllND m'.
Proof. intros H. apply H. Qed.

Lemma chain_sub {D m m'} k : chain D m m' -> ~ In k D -> sub (get m k) (get m' k).
Proof. intros (_ & _ & F) H. apply F, H. Qed.

Lemma chain_same {D m m' k} : chain D m m' -> ~ In k D -> ~ In k bodies -> get m' k = get m k.
Proof. intros (_ & _ & F) H. apply F, H. Qed.

Lemma chain_trans D a b c : chain D a b -> chain D b c -> chain D a c.
Proof.
  intros (L1 & N1 & F1) (L2 & N2 & F2). split; [eapply tok_le_trans; eassumption|]. split; [auto|].
  intros k Hk. destruct (F1 k Hk) as (S1 & E1), (F2 k Hk) as (S2 & E2).
  split; [eapply sub_trans; eassumption|]. intros Hb. rewrite (E2 Hb). apply E1, Hb.
Qed.

Lemma chain_mono D D' m m' : incl D D' -> chain D m m' -> chain D' m m'.
Proof. intros Hi (L & N & F). split; [exact L|]. split; [exact N|]. intros k Hk. apply F. intro H. apply Hk, Hi, H. Qed.

Lemma chain_app D1 D2 a b c : chain D1 a b -> chain D2 b c -> chain (D1 ++ D2) a c.
Proof.
  intros H1 H2. eapply chain_trans.
  - eapply chain_mono; [apply incl_appl, incl_refl|exact H1].
  - eapply chain_mono; [apply incl_appr, incl_refl|exact H2].
Qed.

Lemma chain_upd D m k f :
  tgrow f -> (~ In k D -> forall s, sub s (f s) /\ (~ In k bodies -> f s = s)) -> chain D m (upd m k f).
Proof.
  intros (H1 & H2) H3. split; [apply tok_le_upd, H1|]. split; [intros H; apply AllND_upd; assumption|].
  intros k' Hk'. destruct (Nat.eq_dec k' k) as [->|Hne].
  - rewrite get_upd_same. apply H3, Hk'.
  - rewrite get_upd_other by assumption. split; [apply sub_refl|reflexivity].
Qed.

Lemma chain_good D m k f : good f -> (~ In k bodies -> forall s, f s = s) -> chain D m (upd m k f).
Proof. intros Hf He. apply chain_upd; [apply good_tgrow, Hf|]. intros _ s. split; [apply Hf|intros H; apply He, H]. Qed.

Lemma chain_touch D m k : chain D m (upd m k (fun s => s)).
Proof. apply chain_good; [apply good_id|reflexivity]. Qed.

Lemma chain_kid D m k f : In k D -> tgrow f -> chain D m (upd m k f).
Proof. intros Hk Hf. apply chain_upd; [exact Hf|]. intros H. contradiction. Qed.

Definition visit_chain (o : regex) : Prop := forall fo, chain (ids (kids o)) fo (follow_fo o fo).

Lemma chain_visit D o f m : visit_chain o -> incl (ids [o]) D -> tgrow f -> chain D m (follow_fo o (upd m (rid_of o) f)).
Proof.
  intros Ho HD Hf. rewrite ids_one in HD.
  eapply chain_trans; [apply chain_kid; [apply HD; left; reflexivity|exact Hf]|].
  eapply chain_mono; [|apply Ho]. intros k Hk. apply HD. right. exact Hk.
Qed.

Lemma kids_fo_chain f l : Forall visit_chain l -> tgrow f -> forall fo, chain (ids l) fo (kids_fo f l fo).
Proof.
  intros Hl Hf fo. rewrite Forall_forall in Hl. apply (fold_left_inv (chain (ids l) fo)); [|apply chain_refl].
  intros m o Ho Hm. eapply chain_trans; [exact Hm|]. apply chain_visit; [apply Hl, Ho|apply ids_incl, Ho|exact Hf].
Qed.

Lemma cat_fo_chain base l : Forall visit_chain l -> forall fo, chain (ids l) fo (cat_fo base l fo).
Proof.
  intros Hl fo. induction Hl as [|o r Ho _ IH]; cbn [FollowSpec.cat_fo]; [apply chain_refl|].
  eapply chain_trans; [eapply chain_mono; [|exact IH]|apply chain_visit; [exact Ho|apply ids_incl; left; reflexivity|apply good_tgrow, good_union]].
  rewrite ids_cons. apply incl_appr, incl_refl.
Qed.

Theorem follow_fo_chain : forall x, visit_chain x.
Proof.
  induction x as [x IH] using kids_ind. intros fo.
  pose proof (chain_touch (ids (kids x)) fo (rid_of x)) as H0.
  assert (HK : forall f, tgrow f -> chain (ids (kids x)) fo (kids_fo f (kids x) (upd fo (rid_of x) (fun s => s)))).
  { intros f Hf. eapply chain_trans; [exact H0|]. apply kids_fo_chain; assumption. }
  pose proof (fun X => HK _ (good_tgrow _ (good_union X))) as HU.
  destruct x as [i t|i r|i ops|i ops|i ops|i o|i o|i o|i [o|]|i k]; cbn [FollowSpec.follow_fo rid_of];
    [apply chain_refl| | |apply HU|apply HU| | |apply HU|apply HU|apply chain_refl|apply chain_refl].
  - destruct (body_of g r) as [b|] eqn:Eb; [|apply chain_refl].
    eapply chain_trans; [apply chain_touch|]. eapply chain_trans; [apply chain_touch|]. apply chain_good; [apply good_union|].
    intros Hb. destruct (Hb (body_in_bodies _ _ Eb)).
  - eapply chain_trans; [exact H0|]. apply cat_fo_chain, IH.
  - apply HK, tgrow_star.
  - apply HK, good_tgrow, (good_comp _ _ (good_union _) (good_union _)).
Qed.

Lemma all_visit_chain l : Forall visit_chain l.
Proof. apply Forall_forall. intros o _. apply follow_fo_chain. Qed.

Lemma seq_follow_mono base base' post : tok_sub base' base -> tok_sub (seq_follow fi base' post) (seq_follow fi base post).
Proof.
  intros Hb. induction post as [|op r IH]; cbn [seq_follow]; [assumption|].
  destruct (mem Eps (get fi (rid_of op))); [|apply tok_sub_refl].
  intros a Ha. apply mem_union in Ha. apply mem_union. destruct Ha as [Ha|Ha]; [left; apply IH; assumption|right; assumption].
Qed.

Definition WF (x : regex) : Prop :=
  NoDup (map rid_of (subs x)) /\ (forall k, In k (map rid_of (tl (subs x))) -> ~ In k bodies).

Definition operands_ok (l : list regex) : Prop := NoDup (ids l) /\ forall k, In k (ids l) -> ~ In k bodies.

Lemma operands_ok_app l1 l2 : operands_ok (l1 ++ l2) -> operands_ok l1 /\ operands_ok l2 /\ forall k, In k (ids l1) -> ~ In k (ids l2).
Proof.
  unfold operands_ok. rewrite ids_app. intros (Hnd & Hb). apply NoDup_app_inv in Hnd. destruct Hnd as (N1 & N2 & N3).
  split; [split; [exact N1|intros k Hk; apply Hb, in_or_app; left; exact Hk]|].
  split; [split; [exact N2|intros k Hk; apply Hb, in_or_app; right; exact Hk]|exact N3].
Qed.

Lemma WF_kids x : WF x <-> NoDup (rid_of x :: ids (kids x)) /\ forall k, In k (ids (kids x)) -> ~ In k bodies.
Proof. unfold WF. rewrite subs_kids. reflexivity. Qed.

Lemma WF_inv x : WF x -> ~ In (rid_of x) (ids (kids x)) /\ operands_ok (kids x).
Proof. rewrite WF_kids. unfold operands_ok. intros (Hnd & Hb). inversion Hnd. auto. Qed.

Lemma operands_ok_WF o : operands_ok [o] -> WF o /\ ~ In (rid_of o) bodies.
Proof.
  rewrite WF_kids. unfold operands_ok. rewrite ids_one. intros (Hnd & Hb).
  split; [split; [exact Hnd|intros k Hk; apply Hb; right; exact Hk]|apply Hb; left; reflexivity].
Qed.

Lemma WF_child_of_list x ops o :
  tl (subs x) = flat_map subs ops -> WF x -> In o ops -> WF o /\ ~ In (rid_of o) bodies.
Proof.
  intros Ht Hwf Ho. destruct (WF_inv x Hwf) as (_ & Hk). unfold operands_ok, ids in Hk.
  rewrite subs_kids in Ht. cbn [tl] in Ht. rewrite Ht in Hk.
  apply in_split in Ho. destruct Ho as (l1 & l2 & ->).
  destruct (operands_ok_app l1 ([o] ++ l2) Hk) as (_ & Hk' & _). destruct (operands_ok_app [o] l2 Hk') as (Ko & _ & _).
  exact (operands_ok_WF o Ko).
Qed.

(* [M]: any later state, reached by writes that stay away from the ids below [x]; the set of [x]
   itself has in [M] no token that it did not have when the visit began *)
Definition fol_visit_closes (x : regex) : Prop :=
  WF x -> forall fo D M, chain D (follow_fo x fo) M -> (forall k, In k (ids (kids x)) -> ~ In k D) ->
    tok_sub (get M (rid_of x)) (get fo (rid_of x)) -> forall y, In y (subs x) -> fol_closed_at g fi M y = true.

Lemma kid_closes D o f m M :
  fol_visit_closes o -> operands_ok [o] -> chain D (follow_fo o (upd m (rid_of o) f)) M -> (forall k, In k (ids [o]) -> ~ In k D) ->
  get M (rid_of o) = f (get m (rid_of o)) /\ forall y, In y (subs o) -> fol_closed_at g fi M y = true.
Proof.
  intros Hpo Ko HM Hd. destruct (operands_ok_WF o Ko) as (Hwo & Hnb). rewrite ids_one in Hd.
  assert (E : get M (rid_of o) = f (get m (rid_of o))).
  { rewrite (chain_same HM (Hd _ (or_introl eq_refl)) Hnb).
    rewrite (chain_same (follow_fo_chain o _) (proj1 (WF_inv o Hwo)) Hnb). apply get_upd_same. }
  split; [exact E|]. apply (Hpo Hwo _ D M HM); [intros k Hk; apply Hd; right; exact Hk|].
  rewrite E, get_upd_same. apply tok_sub_refl.
Qed.

Lemma notin_app (k : nat) D1 D2 : ~ In k D1 -> ~ In k D2 -> ~ In k (D1 ++ D2).
Proof. intros H1 H2 H. apply in_app_or in H. destruct H; auto. Qed.

Lemma kids_fo_closes f l : Forall fol_visit_closes l -> operands_ok l -> tgrow f -> forall fo D M,
  chain D (kids_fo f l fo) M -> (forall k, In k (ids l) -> ~ In k D) ->
  (forall o, In o l -> exists s, get M (rid_of o) = f s)
  /\ forall y, In y (flat_map subs l) -> fol_closed_at g fi M y = true.
Proof.
  induction l as [|o r IH]; intros Hl Hk Hf fo D M HM HD; [split; intros ? []|].
  inversion Hl as [|? ? Ho Hr]; subst. destruct (operands_ok_app [o] r Hk) as (Ko & Kr & Hd).
  rewrite ids_cons in HD. cbn [FollowSpec.kids_fo fold_left] in HM. set (m2 := follow_fo o (upd fo (rid_of o) f)) in *.
  destruct (IH Hr Kr Hf m2 D M HM) as (I1 & I2); [intros k Hk'; apply HD, in_or_app; right; exact Hk'|].
  destruct (kid_closes (ids r ++ D) o f fo M Ho Ko) as (E & C).
  { exact (chain_app _ _ _ _ _ (kids_fo_chain f r (all_visit_chain r) Hf m2) HM). }
  { intros k Hk'. apply notin_app; [apply Hd, Hk'|apply HD, in_or_app; left; exact Hk']. }
  split.
  - intros o' [<-|Ho']; [exists (get fo (rid_of o)); exact E|apply I1, Ho'].
  - intros y Hy. cbn [flat_map] in Hy. apply in_app_or in Hy. destruct Hy as [Hy|Hy]; [apply C, Hy|apply I2, Hy].
Qed.

Lemma cat_fo_closes base base' l : Forall fol_visit_closes l -> operands_ok l -> tok_sub base' base -> forall fo D M,
  chain D (cat_fo base l fo) M -> (forall k, In k (ids l) -> ~ In k D) ->
  cat_closed fi M base' l = true
  /\ forall y, In y (flat_map subs l) -> fol_closed_at g fi M y = true.
Proof.
  induction l as [|o r IH]; intros Hl Hk Hb fo D M HM HD; [split; [reflexivity|intros ? []]|].
  inversion Hl as [|? ? Ho Hr]; subst. destruct (operands_ok_app [o] r Hk) as (Ko & Kr & Hd).
  rewrite ids_cons in HD. cbn [FollowSpec.cat_fo cat_closed] in *. set (mr := cat_fo base r fo) in *.
  destruct (kid_closes D o _ mr M Ho Ko HM) as (E & C); [intros k Hk'; apply HD, in_or_app; left; exact Hk'|].
  destruct (IH Hr Kr Hb fo (ids [o] ++ D) M) as (I1 & I2).
  { eapply chain_app; [|exact HM]. apply chain_visit; [apply follow_fo_chain|apply incl_refl|apply good_tgrow, good_union]. }
  { intros k Hk'. apply notin_app; [intro H; exact (Hd _ H Hk')|apply HD, in_or_app; right; exact Hk']. }
  split.
  - rewrite I1, andb_true_r. apply subset_tok_spec. intros a Ha. rewrite E. apply mem_union. right.
    apply cat_fl_tok, (seq_follow_mono _ _ _ Hb), Ha.
  - intros y Hy. cbn [flat_map] in Hy. apply in_app_or in Hy. destruct Hy as [Hy|Hy]; [apply C, Hy|apply I2, Hy].
Qed.

Lemma subset_tok_union X Y s : tok_sub X Y -> subset_tok X (union s Y) = true.
Proof. intros H. apply subset_tok_spec. intros a Ha. apply mem_union. right. apply H, Ha. Qed.

Theorem follow_fo_closes : forall x, fol_visit_closes x.
Proof.
  induction x as [x IH] using kids_ind. intros Hwf fo D M HM HD Hx. destruct (WF_inv x Hwf) as (_ & Hk).
  cut (fol_closed_at g fi M x = true /\ forall y, In y (flat_map subs (kids x)) -> fol_closed_at g fi M y = true).
  { intros (A & B) y Hy. rewrite subs_kids in Hy. destruct Hy as [<-|Hy]; [exact A|exact (B y Hy)]. }
  (* every operand holds what [f] gave it; [Q] is what the inclusion at [x] asks of that *)
  assert (HK : forall (Q : set -> bool) f, chain D (kids_fo f (kids x) (upd fo (rid_of x) (fun s => s))) M ->
            tgrow f -> (forall s, Q (f s) = true) ->
            forallb (fun o => Q (get M (rid_of o))) (kids x) = true
            /\ forall y, In y (flat_map subs (kids x)) -> fol_closed_at g fi M y = true).
  { intros Q f HM' Hf HQ. destruct (kids_fo_closes f (kids x) IH Hk Hf _ D M HM' HD) as (A1 & A2).
    split; [|exact A2]. apply forallb_forall. intros o Ho. destruct (A1 o Ho) as (s & ->). apply HQ. }
  pose proof (fun s => subset_tok_union _ _ s Hx) as HU.
  pose proof (fun HM' => HK (fun v => subset_tok (get M (rid_of x)) v) _ HM' (good_tgrow _ (good_union (get fo (rid_of x)))) HU) as HB.
  destruct x as [i t|i r|i ops|i ops|i ops|i o|i o|i o|i [o|]|i k]; cbn [FollowSpec.follow_fo rid_of kids fol_closed_at] in *;
    [ | | |apply HB, HM|apply HB, HM| | | | | | ]; try (split; [reflexivity|intros ? []]).
  - split; [|intros ? []]. destruct (body_of g r) as [b|] eqn:Eb; [|reflexivity].
    apply subset_tok_spec. intros a Ha. apply (chain_tok HM). rewrite get_upd_same, !get_upd_id. apply mem_union. right. apply Hx, Ha.
  - apply (cat_fo_closes (get fo i) (get M i) ops IH Hk Hx _ D M HM HD).
  - rewrite <- (andb_true_r (_ && _)). apply (HK (fun v => subset_tok (get M i) v && subset_tok (get fi (rid_of o)) v) _ HM); [apply tgrow_star|].
    intros s. rewrite HU. apply subset_tok_spec.
    intros a Ha. apply mem_union. left. apply mem_remove. split; [discriminate|]. apply mem_union. right. exact Ha.
  - rewrite <- (andb_true_r (_ && _)). apply (HK (fun v => subset_tok (get M i) v && subset_tok (get fi i) v) _ HM); [apply good_tgrow, (good_comp _ _ (good_union _) (good_union _))|].
    intros s. rewrite HU. apply subset_tok_spec.
    intros a Ha. apply mem_union. left. apply mem_union. right. exact Ha.
  - rewrite <- (andb_true_r (subset_tok _ _)). apply HB, HM.
  - rewrite <- (andb_true_r (subset_tok _ _)). apply HB, HM.
Qed.

Lemma init_fold_chain sb r l fo : body_of g r = Some sb -> chain bodies fo (fold_left (init_step g sb) l fo).
Proof.
  intros Eb. apply (fold_left_inv (chain bodies fo)); [|apply chain_refl].
  intros m p _ Hm. eapply chain_trans; [exact Hm|]. unfold init_step.
  destruct (body_of g (fst p)) as [pb|] eqn:Ep; [|apply chain_refl].
  eapply chain_trans; apply chain_kid; try apply good_tgrow, good_add; eapply body_in_bodies; eassumption.
Qed.

Lemma init_nd : AllND (fst (follow_init g)).
Proof.
  rewrite follow_init_fst. destruct (body_of g (g_start g)) as [sb|] eqn:Eb; [|constructor].
  apply (chain_nd (init_fold_chain sb _ (g_parts g) (upd [] (rid_of sb) (add (T (g_eof g)))) Eb)), AllND_upd; [constructor|]. intros s. apply NoDup_add.
Qed.

Lemma init_closed fo : tok_le (fst (follow_init g)) fo ->
  (forall y, In y (nodes_of g) -> fol_closed_at g fi fo y = true) -> fol_closed g fi fo = true.
Proof.
  intros L C. apply fol_closed_spec. split; [|exact C]. intros sb Eb. rewrite follow_init_fst, Eb in L.
  pose proof (fun l m => chain_tok (init_fold_chain sb _ l m Eb)) as Li.
  split.
  - apply L, Li. rewrite get_upd_same. apply mem_add. left. reflexivity.
  - intros p t pb Hp Ep. apply in_split in Hp. destruct Hp as (l1 & l2 & E). rewrite E, fold_left_app in L. cbn [fold_left] in L.
    unfold init_step at 2 in L. cbn [fst snd] in L. rewrite Ep in L.
    split; apply L, Li; [apply tok_le_upd; [apply good_tgrow, good_add|]|]; rewrite get_upd_same; apply mem_add; left; reflexivity.
Qed.

Lemma kids_fo_app f l1 l2 fo : kids_fo f (l1 ++ l2) fo = kids_fo f l2 (kids_fo f l1 fo).
Proof. apply fold_left_app. Qed.

Lemma kids_fo_id_chain l fo : chain (ids l) fo (kids_fo (fun s => s) l fo).
Proof. apply kids_fo_chain; [apply all_visit_chain|apply good_tgrow, good_id]. Qed.

Lemma root_not_inner B : NoDup (ids B) -> forall b b', In b B -> In b' B -> ~ In (rid_of b') (ids (kids b)).
Proof.
  induction B as [|c B IH]; intros Hnd b b' Hb Hb'; [contradiction|].
  rewrite ids_cons, ids_one in Hnd. apply NoDup_app_inv in Hnd. destruct Hnd as (N1 & N2 & N3).
  assert (Hin : forall x, In x B -> incl (rid_of x :: ids (kids x)) (ids B)) by (intros x Hx; rewrite <- ids_one; apply ids_incl, Hx).
  destruct Hb as [->|Hb], Hb' as [->|Hb'].
  - inversion N1. assumption.
  - intro H. apply (N3 (rid_of b')); [right; exact H|apply (Hin b' Hb'); left; reflexivity].
  - intro H. apply (N3 (rid_of b')); [left; reflexivity|apply (Hin b Hb); right; exact H].
  - apply IH; assumption.
Qed.

Section Sweep.
Hypothesis Hwf : wf_ids g.

Lemma blist_nodup : NoDup (ids blist).
Proof. unfold ids. rewrite <- nodes_blist. exact Hwf. Qed.

Lemma inner_not_body b k : In b blist -> In k (ids (kids b)) -> ~ In k bodies.
Proof.
  intros Hb Hk H. rewrite bodies_blist in H. apply in_map_iff in H. destruct H as (b' & <- & Hb').
  exact (root_not_inner blist blist_nodup b b' Hb Hb' Hk).
Qed.

Lemma sweep_bodies fo k : In k bodies -> sub (get fo k) (get (sweep fo) k).
Proof.
  intros Hk. apply (fold_left_inv (fun m => sub (get fo k) (get m k))); [|apply sub_refl].
  intros m b Hb Hm. eapply sub_trans; [exact Hm|].
  pose proof (chain_sub k (follow_fo_chain b (upd m (rid_of b) (fun s => s))) (fun H => inner_not_body b k Hb H Hk)) as S.
  rewrite get_upd_id in S. exact S.
Qed.

Lemma final_sweep fo0 :
  AllND fo0 -> body_follow_size g (sweep fo0) = body_follow_size g fo0 ->
  forall y, In y (nodes_of g) -> fol_closed_at g fi (sweep fo0) y = true.
Proof.
  intros Hn Hsz y Hy. rewrite !body_follow_size_blist in Hsz.
  destruct (sum_pointwise_sets blist (fun b => get fo0 (rid_of b)) (fun b => get (sweep fo0) (rid_of b))) as (_ & Hbody).
  { intros b Hb. split; [apply get_nd, Hn|]. apply sweep_bodies. rewrite bodies_blist. apply in_map, Hb. }
  rewrite nodes_blist in Hy. apply in_flat_map in Hy. destruct Hy as (b & Hb & Hy).
  specialize (Hbody (Nat.eq_le_incl _ _ Hsz) b Hb).
  pose proof (fun k => inner_not_body b k Hb) as Hpd. pose proof blist_nodup as Hnd.
  unfold FollowSpec.sweep in *. apply in_split in Hb. destruct Hb as (B1 & B2 & E). rewrite E in *. clear E.
  rewrite kids_fo_app in *. pose proof (chain_tok (kids_fo_id_chain B1 fo0)) as L1. set (m1 := kids_fo (fun s => s) B1 fo0) in *.
  change (kids_fo (fun s => s) (b :: B2) m1) with (kids_fo (fun s => s) B2 (follow_fo b (upd m1 (rid_of b) (fun s => s)))) in *.
  rewrite ids_app, ids_cons in Hnd.
  apply NoDup_app_inv in Hnd. destruct Hnd as (_ & Hnd & _). apply NoDup_app_inv in Hnd. destruct Hnd as (Nb & _ & Hd).
  rewrite ids_one in Nb, Hd.
  apply (follow_fo_closes b (proj2 (WF_kids b) (conj Nb Hpd)) _ (ids B2) _ (kids_fo_id_chain B2 _)); [| |exact Hy].
  - intros k Hk. apply Hd. right. exact Hk.
  - intros a Ha. rewrite get_upd_id. apply L1, Hbody, Ha.
Qed.

Theorem calc_follow_closed fuel fo lf :
  calc_follow g fi fuel = Some (fo, lf) -> fol_closed g fi fo = true.
Proof.
  unfold calc_follow. intros H.
  assert (Hstep : forall m, AllND m /\ tok_le (fst (follow_init g)) m -> AllND (sweep m) /\ tok_le (fst (follow_init g)) (sweep m)).
  { intros m (N & L). pose proof (kids_fo_id_chain blist m) as HC.
    split; [exact (chain_nd HC N)|exact (tok_le_trans _ _ _ L (chain_tok HC))]. }
  destruct (iterate_follow_inv g fi _ Hstep fuel _ _ (conj init_nd (tok_le_refl _)) H) as (m & (N & L) & E & Hsz).
  cbn [fst] in E. rewrite E. apply init_closed; [apply Hstep; split; assumption|apply final_sweep; assumption].
Qed.
End Sweep.

End Closed.

Theorem follow_exact_any g fi fuel fo lf :
  wf_ids_b g = true ->
  calc_follow g fi fuel = Some (fo, lf) ->
  forall y a, In y (nodes_of g) -> (mem (T a) (get fo (rid_of y)) = true <-> Fol g fi y a).
Proof.
  intros Hw Hc y a Hy. apply wf_ids_b_spec in Hw. split.
  - exact (follow_sound g fi Hw fuel fo lf Hc y a Hy).
  - apply follow_complete. exact (calc_follow_closed g fi Hw fuel fo lf Hc).
Qed.
