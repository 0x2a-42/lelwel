(* C14: the recovery set of a repetition or option, as RecoverySetGenerator::run computes it
   (Sema.calc_recovery), is the union of the follow sets of its dominators minus the tokens
   that can start or follow its body; the dominators are those of Dominators.v. *)
From Coq Require Import List Arith Bool.
From LV Require Import Sema SetLemmas FirstCert Dominators.
Import ListNotations.

Fixpoint nodup_b (l : list nat) : bool :=
  match l with [] => true | x :: r => negb (existsb (Nat.eqb x) r) && nodup_b r end.

Section Rec.
Variable g : grammar.
Variable fi fo : smap.
Variable d : dmap.

Definition loop_body (n : nat) : option regex :=
  match node_of g n with
  | Some (RStar _ op) | Some (RPlus _ op) | Some (ROpt _ op) => Some op
  | _ => None
  end.

Definition rec_step (rc : smap) (n : nat) : smap :=
  match node_of g n with
  | Some (RStar _ op) | Some (RPlus _ op) | Some (ROpt _ op) =>
    let all := fold_left (fun s dn => union s (get fo dn)) (dget d n) (get rc n) in
    put rc n (diff (diff all (get fi (rid_of op))) (get fo (rid_of op)))
  | _ => rc
  end.

Lemma rec_step_other rc n m : m <> n -> get (rec_step rc n) m = get rc m.
Proof.
  intros Hne. unfold rec_step. destruct (node_of g n) as [[]|]; try reflexivity; apply get_put_other, Hne.
Qed.

Lemma rec_fold_other l : forall rc m, ~ In m l -> get (fold_left rec_step l rc) m = get rc m.
Proof.
  induction l as [|n r IH]; intros rc m Hm; cbn [fold_left]; [reflexivity|].
  rewrite IH by (intro H; apply Hm; right; assumption).
  apply rec_step_other. intro H. apply Hm. left. auto.
Qed.

Lemma rec_step_same rc n op :
  loop_body n = Some op ->
  get (rec_step rc n) n =
  diff (diff (fold_left (fun s dn => union s (get fo dn)) (dget d n) (get rc n)) (get fi (rid_of op))) (get fo (rid_of op)).
Proof.
  unfold loop_body, rec_step. destruct (node_of g n) as [[]|]; try discriminate; intros [= ->]; apply get_put_same.
Qed.

Theorem recovery_formula l rc0 n op :
  NoDup l -> In n l -> loop_body n = Some op -> get rc0 n = [] ->
  forall s, mem s (get (fold_left rec_step l rc0) n) = true <->
    (exists dn, In dn (dget d n) /\ mem s (get fo dn) = true)
    /\ mem s (get fi (rid_of op)) = false /\ mem s (get fo (rid_of op)) = false.
Proof.
  revert rc0. induction l as [|m r IH]; intros rc0 Hnd Hin Hb H0 s; [contradiction|].
  inversion Hnd as [|? ? Hm Hnd']. subst. cbn [fold_left]. destruct (Nat.eq_dec m n) as [->|Hne].
  - rewrite rec_fold_other by exact Hm. rewrite (rec_step_same rc0 n op Hb).
    rewrite !mem_diff, mem_fold_union, H0. cbn [mem existsb]. split.
    + intros (([H|H] & H1) & H2); [discriminate|auto].
    + intros (H & H1 & H2). auto.
  - destruct Hin as [Hin|Hin]; [contradiction|].
    apply IH; try assumption. rewrite rec_step_other by auto. assumption.
Qed.

End Rec.

Theorem calc_recovery_spec g fi fo used fuel order rc d pg sb :
  body_of g (g_start g) = Some sb ->
  calc_recovery g fi fo used fuel order = Some (rc, d, pg) ->
  let start := rid_of sb in
  let nns := order (map fst pg) in
  graph_ok pg start nns = true -> dom_fixed pg start d = true -> nodup_b nns = true ->
  (forall n x, In n (nadd start nns) -> In x (nadd start nns) -> (In x (dget d n) <-> dominates pg start x n))
  /\ (forall n op, In n nns -> loop_body g n = Some op ->
        forall s, mem s (get rc n) = true <->
          (exists dn, In dn (dget d n) /\ mem s (get fo dn) = true)
          /\ mem s (get fi (rid_of op)) = false /\ mem s (get fo (rid_of op)) = false).
Proof.
  intros Hb H start nns Hg Hf Hnd. unfold calc_recovery in H. rewrite Hb in H.
  destruct (build_preds g used (rid_of sb)) as [u pg'].
  destruct (dom_iter fuel pg' (order (map fst pg')) _) as [d'|] eqn:Ed; [|discriminate].
  injection H as <- <- <-. split.
  - exact (dominators_exact pg' start nns fuel d' Hg Ed Hf).
  - intros n op Hn Hl s.
    apply (recovery_formula g fi fo d'); try assumption; [apply nodup_b_spec, Hnd|]. (* nodup_b above is FirstCert.nodup_b, word for word *)
    assert (Hu : forall k, get (upd [] k (fun s => s)) n = []) by (intros k; cbn; destruct (Nat.eqb n k); reflexivity).
    destruct sb; try reflexivity; apply Hu.
Qed.

(* the start node lies on every path, so everything that may follow the start body (the end-of-input markers)
   is in the recovery set of every loop/option unless it can start or follow the loop body *)
Theorem end_of_input_recovered g fi fo used fuel order rc d pg sb :
  body_of g (g_start g) = Some sb ->
  calc_recovery g fi fo used fuel order = Some (rc, d, pg) ->
  let start := rid_of sb in
  let nns := order (map fst pg) in
  graph_ok pg start nns = true -> dom_fixed pg start d = true -> nodup_b nns = true ->
  forall n op, In n nns -> loop_body g n = Some op ->
  forall s, mem s (get fo start) = true ->
    mem s (get rc n) = true \/ mem s (get fi (rid_of op)) = true \/ mem s (get fo (rid_of op)) = true.
Proof.
  intros Hb H start nns Hg Hf Hnd n op Hn Hl s Hs.
  destruct (calc_recovery_spec g fi fo used fuel order rc d pg sb Hb H Hg Hf Hnd) as (Hdom & Hrec).
  destruct (mem s (get fi (rid_of op))) eqn:E1; [auto|].
  destruct (mem s (get fo (rid_of op))) eqn:E2; [auto|].
  left. apply (Hrec n op Hn Hl s). split; [|auto].
  exists start. split; [|exact Hs].
  apply (Hdom n start).
  - apply In_nadd. right. assumption.
  - apply In_nadd. left. reflexivity.
  - exact (reach_start pg start n).
Qed.

(* what [calc_recovery_spec] asks of the graph that analyse builds (iteration order = key order), as one
   boolean.  The second conjunct, [dom_fixed], holds of every result of the elimination loop on such a graph
   (Dominators.dom_fixed_holds); it is evaluated all the same, as a cross-check. *)
Definition recovery_cert (g : grammar) (d : dmap) : bool :=
  match body_of g (g_start g) with
  | Some sb =>
    let '(u, pg) := build_preds g (calc_used g) (rid_of sb) in
    let nns := map fst pg in
    graph_ok pg (rid_of sb) nns && dom_fixed pg (rid_of sb) d && nodup_b nns
  | None => true
  end.
