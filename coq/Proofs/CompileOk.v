(* Back-end model (Compile.v): for a grammar without ordered choice and without assertions the
   compiled program contains neither an ordered-choice nor an assertion statement, i.e. it meets
   the certificate [prog_ok] of the C06 theorem.  Together with DiagMono.diag_monotone this lifts
   C06's monotonicity clause from "every translated parser that passes the boolean test" to
   "every parser the back-end model produces for such a grammar". *)
From Coq Require Import List Arith Bool.
From LV Require Import Cst Tree ABuild Runtime Exec Sema Compile ListLemmas ExecRel DiagMono FirstSpec.
Import ListNotations.

Fixpoint plain (x : regex) : bool :=
  match x with
  | RChoice _ _ => false
  | RLeaf _ LAssert => false
  | RCat _ ops | RAlt _ ops => forallb plain ops
  | RStar _ o | RPlus _ o | ROpt _ o => plain o
  | RParen _ (Some o) => plain o
  | _ => true
  end.

Definition grammar_plain (g : grammar) : bool :=
  forallb (fun ru => match r_body ru with Some b => plain b | None => true end) (g_rules g).

Lemma in_enumerate_nth {A} (l : list A) : forall n p, In p (enumerate n l) -> In (snd p) l.
Proof.
  induction l as [|x r IH]; intros n p H; [contradiction|].
  destruct H as [<-|H]; [left; reflexivity|right; exact (IH _ _ H)].
Qed.

Lemma block_ok_app a b : block_ok (a ++ b) = block_ok a && block_ok b.
Proof. apply forallb_app. Qed.

Lemma block_ok_one s : stmt_ok s = true -> block_ok [s] = true.
Proof. intros Hs. cbn. rewrite Hs. reflexivity. Qed.

Lemma ocr_app_ok b l : block_ok l = true -> block_ok (ocr b ++ l) = true.
Proof. destruct b; intros H; exact H. Qed.

Definition arms_ok (arms : list (list tok * option guard * list stmt)) : bool :=
  forallb (fun a => block_ok (snd a)) arms.

Lemma match_ok arms d : arms_ok arms = true -> block_ok d = true -> stmt_ok (SMatch arms d) = true.
Proof. intros Ha Hd. apply andb_true_intro. split; assumption. Qed.

Lemma arm_ok (ps : list tok) g b : block_ok b = true -> arms_ok [(ps, g, b)] = true.
Proof. intros H. unfold arms_ok. cbn [forallb snd]. rewrite H. reflexivity. Qed.

(* a `match` whose last arm is emitted only when its token set is not empty, with the return
   from an ordered choice in front of that arm and of the default *)
Lemma match_opt_arm_ok arms (ps : list tok) g ic l d :
  arms_ok arms = true -> block_ok l = true -> block_ok d = true ->
  stmt_ok (SMatch (arms ++ match ps with [] => [] | _ :: _ => [(ps, g, ocr ic ++ l)] end) (ocr ic ++ d)) = true.
Proof.
  intros Ha Hl Hd. apply match_ok; [|exact (ocr_app_ok _ _ Hd)].
  unfold arms_ok in *. rewrite forallb_app, Ha. destruct ps; [reflexivity|exact (arm_ok _ _ _ (ocr_app_ok _ _ Hl))].
Qed.

Section Ok.
Variable g : grammar.
Variable sm : sema.
Variable ci : cinfo.

Lemma c_recover_ok id op body il ic :
  block_ok body = true -> block_ok [c_recover sm id op body il ic] = true.
Proof.
  intros Hb. apply block_ok_one, (block_ok_one (SMatch _ _)).
  apply (match_opt_arm_ok [_; _]); [|reflexivity..].
  unfold arms_ok. cbn [forallb snd]. rewrite block_ok_app, Hb. destruct il; reflexivity.
Qed.

Lemma c_regex_ok : forall x cx, plain x = true -> block_ok (c_regex g sm ci cx x) = true.
Proof.
  induction x as [i t|i r|i ops IH|i ops IH|i ops IH|i o IH|i o IH|i o IH|i|i o IH|i k] using regex_ind';
    intros cx Hp; cbn [c_regex rid_of]; cbn [plain] in Hp;
    rewrite ?forallb_forall in Hp; try rewrite Forall_forall in IH.
  - reflexivity.
  - reflexivity.
  - apply forallb_flat_map. intros y Hy. exact (IH y Hy cx (Hp y Hy)).
  - apply block_ok_one, match_opt_arm_ok; [|reflexivity..].
    apply forallb_forall. intros a [y [<- Hy]]%in_map_iff. exact (IH y Hy cx (Hp y Hy)).
  - discriminate Hp.
  - apply c_recover_ok, IH, Hp.
  - rewrite block_ok_app, IH by exact Hp. apply c_recover_ok, IH, Hp.
  - apply c_recover_ok, IH, Hp.
  - reflexivity.
  - apply IH, Hp.
  - destruct k; try discriminate Hp; destruct (payload_of ci i) as [[?|[?|]|? ?]|]; try reflexivity;
      destruct (el_eqb (rc_el cx) ECond); reflexivity.
Qed.

Lemma close_ok cx a : stmt_ok (close_stmt cx a) = true.
Proof. reflexivity. Qed.

Lemma elision_init_ok hc st el : block_ok (elision_init hc st el) = true.
Proof. destruct hc, st, el; reflexivity. Qed.

Lemma node_kind_decl_ok cx d : block_ok (node_kind_decl cx d) = true.
Proof. unfold node_kind_decl. destruct (rc_rename cx); reflexivity. Qed.

Lemma elision_check_ok cx st el : block_ok (elision_check cx st el) = true.
Proof. destruct st, el; reflexivity. Qed.

Lemma c_normal_rule_ok cx hc st body :
  plain body = true -> block_ok (c_normal_rule g sm ci cx hc st body) = true.
Proof.
  intros Hp. unfold c_normal_rule.
  rewrite !block_ok_app, elision_init_ok, node_kind_decl_ok, elision_check_ok, c_regex_ok by exact Hp. reflexivity.
Qed.

Lemma call_rec_ok rbp ic bp v : stmt_ok (call_rec rbp ic bp v) = true.
Proof. reflexivity. Qed.

Lemma c_primary_arm_ok k0 ren rbp ic recs alt_op :
  plain alt_op = true -> arms_ok (c_primary_arm g sm ci k0 ren rbp ic recs alt_op) = true.
Proof.
  intros Hp. unfold c_primary_arm.
  destruct (branch_of recs alt_op) as [[b l|b r|b l r]|]; try reflexivity; apply arm_ok;
    rewrite !block_ok_app, elision_init_ok, elision_check_ok, andb_true_r; [|exact (c_regex_ok _ _ Hp)].
  destruct alt_op; try exact (c_regex_ok _ _ Hp).
  cbn [plain] in Hp. rewrite forallb_forall in Hp.
  apply forallb_flat_map. intros p Hin. destruct (Nat.eqb (fst p) r); [reflexivity|].
  exact (c_regex_ok _ _ (Hp _ (in_enumerate_nth _ _ _ Hin))).
Qed.

Lemma c_operator_arm_ok k0 ren rbp ic b :
  plain (rec_regex b) = true -> arms_ok (c_operator_arm g sm ci k0 ren rbp ic b) = true.
Proof.
  intros Hp. unfold c_operator_arm.
  destruct b as [x l|x r|x l r]; try reflexivity; (destruct x as [| |i ops| | | | | | |]; try reflexivity);
    cbn [rec_regex plain] in Hp; rewrite forallb_forall in Hp; cbv beta iota zeta.
  (* the two left recursive forms differ in the statements for the right operand *)
  all: set (rest := filter _ _);
    assert (Hin : forall p, In p rest -> block_ok (c_regex g sm ci (mkRctx k0 ENone ren) (snd p)) = true)
      by (intros p [Hp0 _]%filter_In; exact (c_regex_ok _ _ (Hp _ (in_enumerate_nth _ _ _ Hp0))));
    clearbody rest; destruct rest as [|[n0 first] rest']; [reflexivity|]; apply arm_ok;
    rewrite !block_ok_app, andb_true_r; apply andb_true_intro; (split; [destruct rbp; reflexivity|]);
    apply forallb_flat_map; intros p Hp0; cbv beta.
  - exact (Hin p Hp0).
  - destruct (Nat.eqb r (fst p)); [reflexivity|exact (Hin p Hp0)].
Qed.

Lemma c_left_recursive_rule_ok k0 ren ic body recs :
  plain body = true -> (forall b, In b recs -> plain (rec_regex b) = true) ->
  block_ok (snd (snd (c_left_recursive_rule g sm ci k0 ren ic body recs))) = true.
Proof.
  intros Hp Hrecs. cbn [c_left_recursive_rule snd].
  rewrite block_ok_app, node_kind_decl_ok. apply (andb_true_intro (b2 := block_ok [_])). split.
  - apply match_opt_arm_ok; [|reflexivity..].
    apply forallb_flat_map. intros x Hx. apply c_primary_arm_ok.
    destruct body; try contradiction. cbn [plain] in Hp. rewrite forallb_forall in Hp. exact (Hp _ Hx).
  - apply block_ok_one. change (stmt_ok (SLoop ?b)) with (block_ok b).
    rewrite block_ok_app, node_kind_decl_ok. apply block_ok_one, match_ok; [|reflexivity].
    apply forallb_flat_map. intros b Hb. exact (c_operator_arm_ok _ _ _ _ _ (Hrecs _ Hb)).
Qed.

Definition recs_plain : Prop :=
  forall q b, In q (s_recursive sm) -> In b (snd q) -> plain (rec_regex b) = true.

Lemma fn_ok_one (i : rid) ic b r :
  block_ok b = true -> match r with Some (_, rb) => block_ok rb = true | None => True end ->
  forallb (fun rf => ok_fn stmt_ok (snd rf)) [(i, mkFn ic b r)] = true.
Proof.
  unfold block_ok, ok_fn. cbn [forallb snd fn_body fn_rec]. intros ->. destruct r as [[hb rb]|]; [intros ->|]; reflexivity.
Qed.

Lemma c_rule_ok i ru :
  recs_plain -> match r_body ru with Some b => plain b = true | None => True end ->
  forallb (fun rf => ok_fn stmt_ok (snd rf)) (c_rule g sm ci i ru) = true.
Proof.
  intros Hrp Hb. unfold c_rule.
  destruct (negb (rule_used g sm i ru)); [reflexivity|].
  destruct (r_body ru) as [body|]; [|reflexivity].
  pose proof (fun cx hc st => fn_ok_one i (inch sm (r_decl ru)) _ None (c_normal_rule_ok cx hc st body Hb) I) as Hn.
  destruct (find (fun q => Nat.eqb (fst q) i) (s_recursive sm)) as [q|] eqn:Hf; [|apply Hn].
  apply find_some in Hf as [Hq _]. destruct (has_left (snd q)); [|apply Hn].
  apply (fn_ok_one i _ _ (Some (_, _))); [reflexivity|].
  exact (c_left_recursive_rule_ok (rule_kind ci i) _ (inch sm (r_decl ru)) body (snd q) Hb (fun b0 => Hrp q b0 Hq)).
Qed.

Lemma compile_prog_ok_gen :
  recs_plain -> grammar_plain g = true -> prog_ok (compile g sm ci) = true.
Proof.
  intros Hrp Hg. unfold grammar_plain in Hg. rewrite forallb_forall in Hg.
  apply forallb_flat_map. intros p Hp%in_enumerate_nth. apply c_rule_ok; [exact Hrp|].
  specialize (Hg _ Hp). destruct (r_body (snd p)); [exact Hg|exact I].
Qed.
End Ok.

Lemma check_recursive_branches ri body b :
  In b (check_recursive ri body) ->
  match body with Some (RAlt _ alts) => In (rec_regex b) alts | _ => False end.
Proof.
  unfold check_recursive. destruct body as [[]|]; try (intros []).
  intros [alt [Halt H]]%in_flat_map. destruct alt; try contradiction.
  destruct (filter _ _) as [|[i0 x0] rest]; [contradiction|].
  destruct (if refs_rule ri x0 then _ else _), (match rev rest with [] => _ | _ => _ end); try contradiction;
    destruct H as [<-|[]]; exact Halt.
Qed.

Lemma bind_some_ind {A B} (P : B -> Prop) (o : option A) (k : A -> option B) :
  (forall a y, k a = Some y -> P y) -> forall y, match o with Some a => k a | None => None end = Some y -> P y.
Proof. intros Hk y. destruct o; [apply Hk|discriminate]. Qed.

Lemma analyse_recursive g ntoks order sm :
  analyse g ntoks order = Some sm ->
  s_recursive sm =
  filter (fun p => match snd p with [] => false | _ => true end)
         (map (fun p => (fst p, check_recursive (fst p) (r_body (snd p)))) (enumerate 0 (g_rules g))).
Proof.
  unfold analyse. revert sm.
  apply bind_some_ind. intros inch0. apply bind_some_ind. intros fi. apply bind_some_ind. intros [fo lf].
  (* both ways of returning a result build it from the same [recs] *)
  cbv zeta. destruct (_ || _); [intros sm [= <-]; reflexivity|].
  apply bind_some_ind. intros [[rc d] pg] sm [= <-]. reflexivity.
Qed.

Theorem compile_prog_ok g ntoks order sm ci :
  analyse g ntoks order = Some sm -> grammar_plain g = true -> prog_ok (compile g sm ci) = true.
Proof.
  intros Ha Hg. apply compile_prog_ok_gen; [|exact Hg].
  intros q b Hq Hb. rewrite (analyse_recursive _ _ _ _ Ha) in Hq.
  apply filter_In in Hq as [[p [<- Hin%in_enumerate_nth]]%in_map_iff _].
  apply check_recursive_branches in Hb. cbn [fst snd] in Hb.
  unfold grammar_plain in Hg. rewrite forallb_forall in Hg. specialize (Hg _ Hin).
  destruct (r_body (snd p)) as [[]|]; try contradiction.
  cbn [plain] in Hg. rewrite forallb_forall in Hg. exact (Hg _ Hb).
Qed.

(* C06 for the back-end model: every parser compiled from a grammar without ordered choice and
   assertions reports diagnostics with strictly increasing starts and spans in bounds *)
Theorem compiled_parser_diag_monotone :
  forall g ntoks order sm ci, analyse g ntoks order = Some sm -> grammar_plain g = true ->
  forall cx orc, spans_ok cx ->
  forall fuel r root msg st,
    parse_entry cx (compile g sm ci) orc fuel r root msg = XOk st ->
    gh st <> None ->
    Sorted.StronglySorted lt (map d_start (diags st))
    /\ forall d, In d (diags st) -> d_start d <= d_end d /\ d_end d <= max_off cx.
Proof.
  intros g ntoks order sm ci Ha Hg cx orc Hs.
  exact (diag_monotone cx _ orc Hs (compile_prog_ok _ _ _ _ ci Ha Hg)).
Qed.
