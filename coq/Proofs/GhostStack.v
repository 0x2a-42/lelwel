(* C08: the snapshot stack of the ghost stays what it is, the diagnostic list and the callback log
   only grow under every runtime operation and hence under every statement of
   the command language (relation G), for every program, input, oracle and fuel; saving and
   restoring a ParserState brings the abstract tree state, the position, the current token,
   the diagnostics and the error state back exactly, and the concrete node vector again
   represents that abstract tree state. *)
From Coq Require Import List Arith Bool.
From LV Require Import Cst Tree ABuild Runtime Exec Refine ExecRel RuntimeInv ExecInv.
Import ListNotations.

Definition G (st st' : pstate) : Prop :=
  (forall g', gh st' = Some g' -> exists g, gh st = Some g /\ g_snaps g' = g_snaps g)
  /\ (exists d, diags st' = diags st ++ d)
  /\ (exists l, log st' = log st ++ l).

Definition gsame (a b : option ghost) : Prop :=
  forall g', b = Some g' -> exists g, a = Some g /\ g_snaps g' = g_snaps g.

Lemma gsame_refl a : gsame a a.
Proof. intros g' H. exists g'. auto. Qed.

Lemma gsame_trans a b c : gsame a b -> gsame b c -> gsame a c.
Proof.
  intros Hab Hbc g' H. destruct (Hbc g' H) as (g1 & H1 & E1). destruct (Hab g1 H1) as (g0 & H0 & E0).
  exists g0. split; [assumption|congruence].
Qed.

Lemma G_intro st st' d l :
  gsame (gh st) (gh st') -> diags st' = diags st ++ d -> log st' = log st ++ l -> G st st'.
Proof. intros H Hd Hl. split; [exact H|]. split; eexists; eassumption. Qed.

Lemma G_refl st : G st st.
Proof. exact (G_intro st st [] [] (gsame_refl _) (app_nil_end _) (app_nil_end _)). Qed.

Lemma G_trans a b c : G a b -> G b c -> G a c.
Proof.
  intros (A1 & (d1 & A2) & (l1 & A3)) (B1 & (d2 & B2) & (l2 & B3)).
  apply (G_intro a c (d1 ++ d2) (l1 ++ l2)); [exact (gsame_trans _ _ _ A1 B1)|..]; rewrite app_assoc; congruence.
Qed.

Definition keeps_snaps (o : bop) : bool :=
  match o with BSnap | BRestore _ | BRelease => false | _ => true end.

Lemma tree_op_keeps_snaps o : tree_op o -> keeps_snaps o = true.
Proof. destruct o; intros []; reflexivity. Qed.

Lemma gsame_step g c o : keeps_snaps o = true -> gsame g (match g with Some g0 => g_step g0 c o | None => None end).
Proof.
  assert (Hmap : forall sn (x : option abs) g', option_map (fun a => mkGhost a sn) x = Some g' -> g_snaps g' = sn).
  { intros sn [a|] g'; [intros [= <-]; reflexivity|discriminate]. }
  intros Hp g' H. destruct g as [g|]; [|discriminate]. exists g. split; [reflexivity|].
  destruct o; try discriminate Hp; cbn [g_step] in H; try exact (Hmap _ _ _ H).
  destruct (snaps_allow (g_snaps g) p); [exact (Hmap _ _ _ H)|discriminate].
Qed.

Lemma p_error_G st d : G st (p_error st d).
Proof.
  unfold p_error. destruct (active_error st); [apply G_refl|].
  apply (G_intro st _ [d] []); [apply gsame_refl|reflexivity|apply app_nil_end].
Qed.

Lemma p_close_error_node_G st s : p_close_error_node st = Ok s -> G st s.
Proof.
  unfold p_close_error_node. destruct (err_node st) as [m|]; [|intros [= <-]; apply G_refl].
  destruct (c_close (cstd st) m kError) as [c'|w]; [|discriminate]. intros [= <-].
  apply (G_intro st _ [] [ECreate kError m]); [apply gsame_step; reflexivity|apply app_nil_end|reflexivity].
Qed.

Lemma tree_step_G s s' : tree_step s s' -> G s s'.
Proof.
  intros [o c' Ho _]. apply (G_intro s _ [] []); [exact (gsame_step _ _ _ (tree_op_keeps_snaps _ Ho))|apply app_nil_end..].
Qed.

Lemma open_error_node_G s : G s (open_error_node s).
Proof.
  unfold open_error_node. destruct (err_node s); [apply G_refl|]. destruct (c_open (cstd s)) as [mk c'].
  apply (G_intro s _ [] []); [apply gsame_step; reflexivity|apply app_nil_end|apply app_nil_end].
Qed.

Lemma drain_gsame cx : forall l c g c' g', drain_toks cx l c g = (c', g') -> gsame g g'.
Proof.
  induction l as [|t l IH]; intros c g c' g' H; cbn [drain_toks] in H.
  - injection H as _ <-. apply gsame_refl.
  - exact (gsame_trans _ _ _ (gsame_step g c (BAdvance t _) eq_refl) (IH _ _ _ _ H)).
Qed.

Lemma advanced_G cx s b : G s (advanced cx s b).
Proof.
  unfold advanced. set (g := if _ <? _ then _ else _).
  assert (Hg : gsame (gh s) g) by (unfold g; destruct (_ <? _); [apply gsame_step; reflexivity|discriminate]).
  destruct (skipped_to_drain cx s (S (pos s)) (c_advance (cstd s) (cur s) false) g b) as (l & _ & _ & Hd).
  apply (G_intro s _ [] []); [exact (gsame_trans _ _ _ Hg (drain_gsame _ _ _ _ _ _ Hd))|apply app_nil_end|apply app_nil_end].
Qed.

Lemma add_event_G st e : G st (add_event st e).
Proof. apply (G_intro st _ [] [e]); [apply gsame_refl|apply app_nil_end|reflexivity]. Qed.

Lemma set_in_choice_G st b : G st (set_in_choice st b).
Proof. apply (G_intro st _ [] []); [apply gsame_refl|apply app_nil_end|apply app_nil_end]. Qed.

Lemma push_assert_diag_G cx st : G st (push_assert_diag cx st).
Proof. apply (G_intro st _ [mk_diag cx st msg_assert] []); [apply gsame_refl|reflexivity|apply app_nil_end]. Qed.

Lemma G_kept cx : kept cx G.
Proof.
  apply kept_of_steps.
  - exact G_refl.
  - exact G_trans.
  - intros s b _. apply advanced_G.
  - intros st m. apply p_error_G.
  - exact p_close_error_node_G.
  - exact tree_step_G.
  - intros s _. apply open_error_node_G.
  - exact add_event_G.
  - exact set_in_choice_G.
Qed.

Lemma p_get_state_ghost st sv st0 g0 :
  p_get_state st = (sv, st0) -> gh st0 = Some g0 ->
  exists g, gh st = Some g /\ g0 = mkGhost (g_abs g) (mkSnap (c_mark_truncation (cstd st)) (g_abs g) :: g_snaps g).
Proof.
  unfold p_get_state. intros [= <- <-]. cbn [gh]. unfold gstep.
  destruct (gh st) as [g|]; [|discriminate]. cbn [g_step]. intros [= <-]. exists g. auto.
Qed.

Lemma restore_ghost del st sv st0 st2 :
  p_get_state st = (sv, st0) -> G st0 st2 -> forall g3, gh (p_set_state del st2 sv) = Some g3 -> gh st0 = Some g3.
Proof.
  intros Hg (G1 & _) g3 H3. unfold p_set_state, gstep in H3. cbn [gh] in H3.
  destruct (gh st2) as [g2|]; [|discriminate]. destruct (G1 g2 eq_refl) as (g0 & H0 & E0).
  destruct (p_get_state_ghost _ _ _ _ Hg H0) as (g & _ & ->).
  cbn [g_step] in H3. rewrite E0 in H3. injection H3 as <-. exact H0.
Qed.

(* [st3] is [st] again, but for the tree cells (truncated), a longer log and the snapshot taken in [st] *)
Definition restored (st st3 : pstate) : Prop :=
  pos st3 = pos st /\ cur st3 = cur st /\ diags st3 = diags st
  /\ err_node st3 = err_node st /\ esa st3 = esa st
  /\ (exists l, log st3 = log st ++ l)
  /\ forall g3, gh st3 = Some g3 ->
       exists g, gh st = Some g /\ g_abs g3 = g_abs g
                 /\ g_snaps g3 = mkSnap (c_mark_truncation (cstd st)) (g_abs g) :: g_snaps g.

(* the abandoned attempt leaves no trace in the state the parser continues from *)
Theorem restore_exact del st sv st0 st2 :
  p_get_state st = (sv, st0) -> G st0 st2 -> restored st (p_set_state del st2 sv).
Proof.
  intros Hg HG. pose proof (restore_ghost del _ _ _ _ Hg HG) as Hr.
  destruct HG as (_ & (d & G2) & (l & G3)). pose proof Hg as [= <- <-]. cbn [diags log] in G2, G3.
  unfold restored, p_set_state. cbn [pos cur diags err_node esa log sv_pos sv_cur sv_diags sv_err sv_esa].
  repeat split.
  - rewrite G2. apply ListLemmas.firstn_app_exact.
  - rewrite G3, <- app_assoc. eexists. reflexivity.
  - intros g3 H3. destruct (p_get_state_ghost _ _ _ _ Hg (Hr g3 H3)) as (g & Hgs & ->). exists g. cbn. auto.
Qed.

Lemma p_set_state_G del st sv st0 st2 :
  p_get_state st = (sv, st0) -> G st0 st2 -> G st0 (p_set_state del st2 sv).
Proof.
  intros Hg HG. destruct (restore_exact del st sv st0 st2 Hg HG) as (_ & _ & Rd & _ & _ & (l & Rl) & _).
  apply (G_intro st0 _ [] l).
  - intros g3 H3. exists g3. split; [exact (restore_ghost _ _ _ _ _ Hg HG _ H3)|reflexivity].
  - rewrite Rd. injection Hg as _ <-. apply app_nil_end.
  - rewrite Rl. injection Hg as _ <-. reflexivity.
Qed.

Lemma p_release_ghost st g' :
  gh (p_release st) = Some g' -> exists g, gh st = Some g /\ g_snaps g' = tl (g_snaps g).
Proof.
  unfold p_release. cbn [gh]. unfold gstep. destruct (gh st) as [g|]; [|discriminate]. cbn [g_step].
  destruct (g_snaps g) as [|s r] eqn:E; [discriminate|]. intros [= <-]. exists g. rewrite E. auto.
Qed.

Lemma release_closes st sv st0 st3 : p_get_state st = (sv, st0) -> G st0 st3 -> G st (p_release st3).
Proof.
  intros Hg (A1 & (d & A2) & (l & A3)). apply (G_intro st _ d l).
  - intros g' H. destruct (p_release_ghost _ _ H) as (g3 & H3 & E3).
    destruct (A1 g3 H3) as (g0 & H0 & E0).
    destruct (p_get_state_ghost _ _ _ _ Hg H0) as (g & Hgs & ->).
    exists g. split; [assumption|]. rewrite E3, E0. reflexivity.
  - injection Hg as _ <-. exact A2.
  - injection Hg as _ <-. exact A3.
Qed.

Section EX.
Variable cx : pctx.
Variable prog : program.
Variable orc : oracles.

(* inside a choice whose snapshot [sv] was taken in [st]: the state is reached from the state [st0] right after the save *)
Definition GA (sv : saved) (st1 st' : pstate) : Prop :=
  forall st st0, p_get_state st = (sv, st0) -> G st0 st1 -> G st st'.

Theorem exec_G : forall fuel, exec_keeps cx prog orc G fuel.
Proof.
  apply (exec_keeps_all cx prog orc G GA).
  - apply G_kept.
  - apply push_assert_diag_G.
  - intros st sv st0 st' Hg HA. exact (HA _ _ Hg (G_refl _)).
  - intros sv st1 st3 H13 st st0 Hg H01. exact (release_closes _ _ _ _ Hg (G_trans _ _ _ H01 H13)).
  - intros sv st1 st2 st' H12 HA st st0 Hg H01.
    exact (HA _ _ Hg (p_set_state_G _ _ _ _ _ Hg (G_trans _ _ _ H01 H12))).
Qed.

Theorem attempt_leaves_no_trace fuel rec_of body e st sv st0 o e2 st2 :
  p_get_state st = (sv, st0) ->
  exec_block cx prog orc fuel rec_of body e st0 = XOk (o, e2, st2) ->
  restored st (p_set_state (deletable prog) st2 sv).
Proof.
  intros Hg He. apply restore_exact with (st0 := st0); [assumption|].
  exact (proj1 (proj2 (exec_G fuel)) _ _ _ _ _ _ _ He).
Qed.

(* a whole ordered choice: the snapshot stack is what it was, diagnostics and log only grow *)
Theorem ord_choice_balanced fuel rec_of a b alts lp last m e st o e' st' :
  exec cx prog orc fuel rec_of (SOrdChoice a b alts lp last m) e st = XOk (o, e', st') -> G st st'.
Proof. apply (exec_G fuel). Qed.

(* ... and the concrete node vector represents the abstract tree state of before the attempt again *)
Theorem attempt_restores_tree fuel rec_of body e st sv st0 o e2 st2 :
  RInv cx st ->
  p_get_state st = (sv, st0) ->
  exec_block cx prog orc fuel rec_of body e st0 = XOk (o, e2, st2) ->
  let st3 := p_set_state (deletable prog) st2 sv in
  gh st3 <> None ->
  RInv cx st3
  /\ exists g g3, gh st = Some g /\ gh st3 = Some g3 /\ g_abs g3 = g_abs g
     /\ Inv (cstd st) (snaps st) g /\ Inv (cstd st3) (snaps st3) g3.
Proof.
  intros HR Hg He st3 Hne.
  destruct (p_get_state_spec cx _ _ _ Hg) as (Hsn & _ & Hsv & Hinv).
  destruct (proj1 (proj2 (exec_P cx prog orc fuel)) _ _ _ _ _ _ _ He) as (Q1 & Q2 & Q3). rewrite <- Q2 in Hsn.
  destruct (p_set_state_spec cx (deletable prog) st2 sv (snaps st) Hsn) as (S1 & _ & S3). fold st3 in S1, S3.
  pose proof (defined_before _ _ S1 Hne) as N2.
  pose proof (S3 (Q3 (Hinv HR (defined_before _ _ Q1 N2)) N2) (Hsv HR) Hne) as R3.
  split; [exact R3|].
  destruct (attempt_leaves_no_trace fuel rec_of body e st sv st0 o e2 st2 Hg He) as (_ & _ & _ & _ & _ & _ & T).
  fold st3 in T. destruct R3 as (g3 & E3 & I3 & _). destruct (T g3 E3) as (g & Hgs & Ha & _).
  exists g, g3. split; [exact Hgs|]. split; [exact E3|]. split; [exact Ha|]. split; [|exact I3].
  destruct HR as (g' & G1 & G2 & _). rewrite Hgs in G1. injection G1 as <-. exact G2.
Qed.

End EX.
