(* The structure of regular expressions that all proofs about the analysis use (operands,
   nested occurrences, size), then the specification side for C09 (first sets): derivations of the
   grammar as written (EBNF operators; ordered choice read as union; node operators, predicates and
   actions derive the empty word), the nodes of a grammar, and the boolean closure certificate, with
   completeness: a map that is closed under the first-set equations contains the head of every
   derivation.  Last, what the proofs about the analysis share: maps whose entries a predicate on
   nodes justifies, and first_regex by the cases it distinguishes. *)
From Coq Require Import List Arith Bool.
From LV Require Import Sema SetLemmas.
Import ListNotations.

Section RegexInd.
  Variable P : regex -> Prop.
  Hypothesis Ht : forall i t, P (RTok i t).
  Hypothesis Hr : forall i r, P (RRule i r).
  Hypothesis Hc : forall i ops, Forall P ops -> P (RCat i ops).
  Hypothesis Ha : forall i ops, Forall P ops -> P (RAlt i ops).
  Hypothesis Hch : forall i ops, Forall P ops -> P (RChoice i ops).
  Hypothesis Hs : forall i o, P o -> P (RStar i o).
  Hypothesis Hp : forall i o, P o -> P (RPlus i o).
  Hypothesis Ho : forall i o, P o -> P (ROpt i o).
  Hypothesis Hpa0 : forall i, P (RParen i None).
  Hypothesis Hpa1 : forall i o, P o -> P (RParen i (Some o)).
  Hypothesis Hl : forall i k, P (RLeaf i k).
  Fixpoint regex_ind' (x : regex) : P x :=
    let fix go (l : list regex) : Forall P l :=
        match l with [] => Forall_nil P | y :: r => Forall_cons y (regex_ind' y) (go r) end in
    match x with
    | RTok i t => Ht i t
    | RRule i r => Hr i r
    | RCat i ops => Hc i ops (go ops)
    | RAlt i ops => Ha i ops (go ops)
    | RChoice i ops => Hch i ops (go ops)
    | RStar i o => Hs i o (regex_ind' o)
    | RPlus i o => Hp i o (regex_ind' o)
    | ROpt i o => Ho i o (regex_ind' o)
    | RParen i None => Hpa0 i
    | RParen i (Some o) => Hpa1 i o (regex_ind' o)
    | RLeaf i k => Hl i k
    end.
End RegexInd.

Definition kids (x : regex) : list regex :=
  match x with
  | RCat _ ops | RAlt _ ops | RChoice _ ops => ops
  | RStar _ o | RPlus _ o | ROpt _ o | RParen _ (Some o) => [o]
  | _ => []
  end.

Fixpoint subs (x : regex) : list regex :=
  x :: match x with
       | RCat _ ops | RAlt _ ops | RChoice _ ops => flat_map subs ops
       | RStar _ o | RPlus _ o | ROpt _ o => subs o
       | RParen _ (Some o) => subs o
       | _ => []
       end.

Lemma kids_ind (P : regex -> Prop) : (forall x, Forall P (kids x) -> P x) -> forall x, P x.
Proof. intros H. induction x using regex_ind'; apply H; cbn [kids]; auto. Qed.

Lemma subs_self x : In x (subs x).
Proof. destruct x; cbn; auto. Qed.

Lemma subs_kids x : subs x = x :: flat_map subs (kids x).
Proof. destruct x as [| | | | | | | |? [o|]|]; cbn [subs kids flat_map]; rewrite ?app_nil_r; reflexivity. Qed.

Lemma kid_in_subs x o : In o (kids x) -> In o (subs x).
Proof.
  intros H. rewrite subs_kids. right. apply in_flat_map. exists o. split; [assumption|apply subs_self].
Qed.

Lemma subs_ex (P : regex -> Prop) x :
  (exists y, In y (subs x) /\ P y) <-> P x \/ exists o, In o (kids x) /\ exists y, In y (subs o) /\ P y.
Proof.
  rewrite subs_kids. split.
  - intros (y & [<-|Hy] & Hp); [left; exact Hp|right].
    apply in_flat_map in Hy. destruct Hy as (o & Ho & Hy). exists o. split; [exact Ho|]. exists y. auto.
  - intros [Hp|(o & Ho & y & Hy & Hp)].
    + exists x. split; [left; reflexivity|exact Hp].
    + exists y. split; [right; apply in_flat_map; exists o; auto|exact Hp].
Qed.

Lemma rsize_kids x : rsize x = S (list_sum (map rsize (kids x))).
Proof.
  destruct x as [| | | | | | | |? [?|]|]; cbn [rsize kids map]; try reflexivity; cbn [list_sum fold_right];
    rewrite Nat.add_0_r; reflexivity.
Qed.

Lemma rsize_pos x : 0 < rsize x.
Proof. rewrite rsize_kids. apply Nat.lt_0_succ. Qed.

Lemma rsize_kid x o : In o (kids x) -> rsize o < rsize x.
Proof. intros H. rewrite (rsize_kids x). apply le_n_S, in_list_sum, in_map, H. Qed.

Lemma subs_trans x : forall y z, In y (subs x) -> In z (subs y) -> In z (subs x).
Proof.
  induction x as [x IH] using kids_ind. intros y z Hy Hz. rewrite subs_kids in Hy |- *.
  destruct Hy as [<-|Hy]; [rewrite <- subs_kids; assumption|].
  apply in_flat_map in Hy. destruct Hy as (o & Ho & Hy). rewrite Forall_forall in IH.
  right. apply in_flat_map. exists o. split; [assumption|]. eapply IH; eassumption.
Qed.

Lemma child_in_subs_list i ops o (x := RCat i ops) : In o ops -> In o (flat_map subs ops).
Proof. intros H. apply in_flat_map. exists o. split; [assumption|apply subs_self]. Qed.

Section Spec.
Variable g : grammar.

Inductive derives : regex -> list tokn -> Prop :=
| D_tok i t : derives (RTok i t) [t]
| D_rule i r b w : body_of g r = Some b -> derives b w -> derives (RRule i r) w
| D_rule_empty i r : body_of g r = None -> derives (RRule i r) []
| D_cat i ops w : derives_list ops w -> derives (RCat i ops) w
| D_alt i ops x w : In x ops -> derives x w -> derives (RAlt i ops) w
| D_choice i ops x w : In x ops -> derives x w -> derives (RChoice i ops) w
| D_star i x w : derives_star x w -> derives (RStar i x) w
| D_plus i x w1 w2 : derives x w1 -> derives_star x w2 -> derives (RPlus i x) (w1 ++ w2)
| D_opt0 i x : derives (ROpt i x) []
| D_opt1 i x w : derives x w -> derives (ROpt i x) w
| D_paren0 i : derives (RParen i None) []
| D_paren1 i x w : derives x w -> derives (RParen i (Some x)) w
| D_leaf i k : derives (RLeaf i k) []
with derives_list : list regex -> list tokn -> Prop :=
| DL_nil : derives_list [] []
| DL_cons x r w1 w2 : derives x w1 -> derives_list r w2 -> derives_list (x :: r) (w1 ++ w2)
with derives_star : regex -> list tokn -> Prop :=
| DS_nil x : derives_star x []
| DS_cons x w1 w2 : derives x w1 -> derives_star x w2 -> derives_star x (w1 ++ w2).

Scheme derives_mind := Induction for derives Sort Prop
  with derives_list_mind := Induction for derives_list Sort Prop
  with derives_star_mind := Induction for derives_star Sort Prop.
Combined Scheme derives_mutind from derives_mind, derives_list_mind, derives_star_mind.

Definition First_spec (x : regex) (a : tokn) : Prop := exists w, derives x (a :: w).
Definition Nullable_spec (x : regex) : Prop := derives x [].

(* both at once: the analysis sees a derived word through its head *)
Definition hd_sym (w : list tokn) : sym := match w with [] => Eps | a :: _ => T a end.

Definition nodes_of : list regex :=
  flat_map (fun ru => match r_body ru with Some b => subs b | None => [] end) (g_rules g).

Definition wf_ids : Prop := NoDup (map rid_of nodes_of).
Definition productive : Prop := forall x, In x nodes_of -> exists w, derives x w.

Fixpoint seq_first (m : smap) (ops : list regex) : set :=
  match ops with
  | [] => [Eps]
  | op :: r =>
    let f := get m (rid_of op) in
    if mem Eps f then union (remove Eps f) (seq_first m r) else remove Eps f
  end.

Definition closed_at (m : smap) (x : regex) : bool :=
  let s := get m (rid_of x) in
  match x with
  | RTok _ t => mem (T t) s
  | RRule _ r => match body_of g r with Some b => subset (get m (rid_of b)) s | None => mem Eps s end
  | RCat _ ops => subset (seq_first m ops) s
  | RAlt _ ops | RChoice _ ops => forallb (fun o => subset (get m (rid_of o)) s) ops
  | RStar _ o | ROpt _ o => subset (get m (rid_of o)) s && mem Eps s
  | RPlus _ o => subset (get m (rid_of o)) s
  | RParen _ (Some o) => subset (get m (rid_of o)) s
  | RParen _ None | RLeaf _ _ => mem Eps s
  end.

Definition first_closed (m : smap) : bool := forallb (closed_at m) nodes_of.

Lemma body_in_nodes r b : body_of g r = Some b -> In b nodes_of.
Proof.
  unfold body_of, nth_rule, nodes_of. destruct (nth_error (g_rules g) r) as [ru|] eqn:E; [|discriminate].
  intros Hb. apply in_flat_map. exists ru. split; [eapply nth_error_In; eassumption|].
  rewrite Hb. apply subs_self.
Qed.

Lemma sub_in_nodes x y : In x nodes_of -> In y (subs x) -> In y nodes_of.
Proof.
  unfold nodes_of. intros Hx Hy. apply in_flat_map in Hx. destruct Hx as (ru & Hru & Hx).
  apply in_flat_map. exists ru. split; [assumption|].
  destruct (r_body ru) as [b|]; [|contradiction]. eapply subs_trans; eassumption.
Qed.

Lemma kid_node x o : In x nodes_of -> In o (kids x) -> In o nodes_of.
Proof. intros Hx Ho. eapply sub_in_nodes; [exact Hx|apply kid_in_subs; exact Ho]. Qed.

Lemma mem_seq_first_cons m o r x :
  mem x (seq_first m (o :: r)) = true <->
  (x <> Eps /\ mem x (get m (rid_of o)) = true)
  \/ (mem Eps (get m (rid_of o)) = true /\ mem x (seq_first m r) = true).
Proof.
  cbn [seq_first]. destruct (mem Eps (get m (rid_of o))); rewrite ?mem_union, mem_remove; intuition discriminate.
Qed.

End Spec.

Section Complete.
Variable g : grammar.
Variable m : smap.
Hypothesis Hcl : first_closed g m = true.

Lemma closed_node x : In x (nodes_of g) -> closed_at g m x = true.
Proof. intros H. unfold first_closed in Hcl. rewrite forallb_forall in Hcl. auto. Qed.

Lemma complete_mut :
  (forall x w, derives g x w -> In x (nodes_of g) -> mem (hd_sym w) (get m (rid_of x)) = true)
  /\ (forall ops w, derives_list g ops w -> (forall o, In o ops -> In o (nodes_of g)) ->
      mem (hd_sym w) (seq_first m ops) = true)
  /\ (forall x w, derives_star g x w -> In x (nodes_of g) ->
      w = [] \/ mem (hd_sym w) (get m (rid_of x)) = true).
Proof.
  apply derives_mutind.
  - (* tok *) intros i t Hn. exact (closed_node _ Hn).
  - (* rule *) intros i r b w Hb _ IH Hn. pose proof (closed_node _ Hn) as Hc. cbn in Hc. rewrite Hb in Hc.
    exact (subset_mem _ _ _ Hc (IH (body_in_nodes _ _ _ Hb))).
  - (* empty rule *) intros i r Hb Hn. pose proof (closed_node _ Hn) as Hc. cbn in Hc. rewrite Hb in Hc. exact Hc.
  - (* cat *) intros i ops w _ IH Hn. apply (subset_mem _ _ _ (closed_node _ Hn)), IH.
    intros o. apply (kid_node g _ _ Hn).
  - (* alt *) intros i ops x w Hin _ IH Hn.
    exact (subset_mem _ _ _ (proj1 (forallb_forall _ _) (closed_node _ Hn) x Hin) (IH (kid_node g _ x Hn Hin))).
  - (* choice *) intros i ops x w Hin _ IH Hn.
    exact (subset_mem _ _ _ (proj1 (forallb_forall _ _) (closed_node _ Hn) x Hin) (IH (kid_node g _ x Hn Hin))).
  - (* star *) intros i x w _ IH Hn. destruct (andb_prop _ _ (closed_node _ Hn)) as (Hs & He).
    destruct (IH (kid_node g _ x Hn (or_introl eq_refl))) as [->|H]; [exact He|exact (subset_mem _ _ _ Hs H)].
  - (* plus *) intros i x w1 w2 _ IH1 _ IH2 Hn.
    apply (subset_mem _ _ _ (closed_node _ Hn)). pose proof (kid_node g _ x Hn (or_introl eq_refl)) as Hx.
    destruct w1; [destruct (IH2 Hx) as [->|H]; [|exact H]|]; exact (IH1 Hx).
  - (* opt0 *) intros i x Hn. exact (proj2 (andb_prop _ _ (closed_node _ Hn))).
  - (* opt1 *) intros i x w _ IH Hn.
    exact (subset_mem _ _ _ (proj1 (andb_prop _ _ (closed_node _ Hn))) (IH (kid_node g _ x Hn (or_introl eq_refl)))).
  - (* paren0 *) intros i Hn. exact (closed_node _ Hn).
  - (* paren1 *) intros i x w _ IH Hn. exact (subset_mem _ _ _ (closed_node _ Hn) (IH (kid_node g _ x Hn (or_introl eq_refl)))).
  - (* leaf *) intros i k Hn. exact (closed_node _ Hn).
  - (* nil *) reflexivity.
  - (* cons *) intros x r w1 w2 _ IH1 _ IH2 Hn.
    specialize (IH1 (Hn x (or_introl eq_refl))). specialize (IH2 (fun o Ho => Hn o (or_intror Ho))).
    apply mem_seq_first_cons. destruct w1 as [|a w1]; [right; split; [exact IH1|exact IH2]|left].
    split; [discriminate|exact IH1].
  - (* star nil *) intros x _. left. reflexivity.
  - (* star cons *) intros x w1 w2 _ IH1 _ IH2 Hn. destruct w1; [exact (IH2 Hn)|right; exact (IH1 Hn)].
Qed.

End Complete.

Section Just.
Variable g : grammar.
Hypothesis Hwf : wf_ids g.
Variable P : regex -> sym -> Prop.

Lemma id_inj x y : In x (nodes_of g) -> In y (nodes_of g) -> rid_of x = rid_of y -> x = y.
Proof. apply NoDup_map_inj, Hwf. Qed.

Definition Just (m : smap) : Prop :=
  forall x, In x (nodes_of g) -> forall s, mem s (get m (rid_of x)) = true -> P x s.

Lemma Just_empty : Just [].
Proof. intros x _ s Hs. discriminate. Qed.

Lemma Just_touch m k : Just m -> Just (upd m k (fun s => s)).
Proof. intros HJ x Hx s. rewrite get_upd_id. apply HJ, Hx. Qed.

Lemma Just_upd m x f :
  Just m -> In x (nodes_of g) ->
  (forall s, mem s (f (get m (rid_of x))) = true -> mem s (get m (rid_of x)) = true \/ P x s) ->
  Just (upd m (rid_of x) f).
Proof.
  intros HJ Hx Hf y Hy s Hs.
  destruct (Nat.eq_dec (rid_of y) (rid_of x)) as [He|Hne].
  - rewrite He, get_upd_same in Hs. rewrite (id_inj _ _ Hy Hx He). destruct (Hf s Hs); auto.
  - rewrite get_upd_other in Hs by assumption. apply (HJ y Hy s Hs).
Qed.

Lemma Just_union m x X :
  Just m -> In x (nodes_of g) -> (forall s, mem s X = true -> P x s) ->
  Just (upd m (rid_of x) (fun s => union s X)).
Proof. intros HJ Hx HX. apply Just_upd; try assumption. intros s Hs. apply mem_union in Hs. destruct Hs; auto. Qed.

Lemma Just_add m x a : Just m -> In x (nodes_of g) -> P x a -> Just (upd m (rid_of x) (add a)).
Proof.
  intros HJ Hx Ha. apply Just_upd; try assumption. intros s Hs. apply mem_add in Hs.
  destruct Hs as [->|Hs]; auto.
Qed.
End Just.

Section Visit.
Variable g : grammar.

(* RAlt and RChoice are treated alike, RStar like ROpt; RPlus and RParen do what an
   alternation of their one operand does; RLeaf and the empty RParen add the empty word *)
Inductive form :=
| FSym (a : sym)
| FRef (b : regex)
| FOpt (o : regex)
| FAlt (ops : list regex)
| FCat (ops : list regex).

Definition form_of (x : regex) : form :=
  match x with
  | RTok _ t => FSym (T t)
  | RRule _ r => match body_of g r with Some b => FRef b | None => FSym Eps end
  | RCat _ ops => FCat ops
  | RAlt _ ops | RChoice _ ops => FAlt ops
  | RStar _ o | ROpt _ o => FOpt o
  | RPlus _ o | RParen _ (Some o) => FAlt [o]
  | RParen _ None | RLeaf _ _ => FSym Eps
  end.

Lemma form_kids x :
  kids x = match form_of x with FOpt o => [o] | FAlt ops | FCat ops => ops | _ => [] end.
Proof. destruct x as [|? r| | | | | | |? [?|]|]; try reflexivity. cbn. destruct (body_of g r); reflexivity. Qed.

Lemma form_ref x b : form_of x = FRef b -> In b (nodes_of g).
Proof.
  destruct x as [|? r| | | | | | |? [?|]|]; try discriminate. cbn.
  destruct (body_of g r) eqn:E; intros [= <-]. eapply body_in_nodes, E.
Qed.

Definition alt_go (id : nat) :=
  fix go (l : list regex) (m : smap) : smap :=
    match l with
    | [] => m
    | op :: r =>
      let m1 := first_regex g op m in
      go r (upd m1 id (fun s => union s (get m1 (rid_of op))))
    end.

Definition cat_go :=
  fix go (l : list regex) (m : smap) (use_next : bool) (acc : set) : smap * bool * set :=
    match l with
    | [] => (m, use_next, acc)
    | op :: r =>
      let m1 := first_regex g op m in
      if use_next then
        let opf := get m1 (rid_of op) in
        go r m1 (mem Eps opf) (remove Eps (union acc opf))
      else go r m1 false acc
    end.

Lemma first_regex_eq x m :
  first_regex g x m =
  match form_of x with
  | FSym a => upd m (rid_of x) (add a)
  | FRef b => upd m (rid_of x) (fun s => union s (get m (rid_of b)))
  | FOpt o =>
    let m1 := first_regex g o (upd m (rid_of x) (fun s => s)) in
    upd m1 (rid_of x) (fun s => add Eps (union s (get m1 (rid_of o))))
  | FAlt ops => alt_go (rid_of x) ops (upd m (rid_of x) (fun s => s))
  | FCat ops =>
    let '(m1, use_next, acc) := cat_go ops (upd m (rid_of x) (fun s => s)) true [] in
    upd m1 (rid_of x) (fun s => union s (if use_next then add Eps acc else acc))
  end.
Proof.
  destruct x as [|? r| | | | | | |? [?|]|]; try reflexivity.
  cbn [first_regex form_of]. destruct (body_of g r); reflexivity.
Qed.
End Visit.
