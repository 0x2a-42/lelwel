(* C09, first sets: the map that calc_first returns is always closed under the first-set
   inclusions - so the closure certificate of FirstSpec.v is a theorem, not a
   per-grammar check.  Argument: every pass only grows the map (positionally: existing
   entries get supersets, new entries are appended); the loop stops when the total size
   did not change, and a growing map of duplicate-free sets with unchanged total size is
   pointwise unchanged; so the last pass, and every visit in it, starts and ends with the
   sets of the result, and then the write at each node, which added nothing, is the
   inclusion at that node. *)
From Coq Require Import List Arith Bool.
From LV Require Import Sema SetLemmas FirstSpec.
Import ListNotations.

Inductive grow : smap -> smap -> Prop :=
| grow_nil extra : grow [] extra
| grow_cons k s s' r r' : sub s s' -> grow r r' -> grow ((k, s) :: r) ((k, s') :: r').

Lemma grow_refl m : grow m m.
Proof. induction m as [|[k s] r IH]; constructor; [apply sub_refl|assumption]. Qed.

Lemma grow_trans a b c : grow a b -> grow b c -> grow a c.
Proof.
  intros H. revert c. induction H as [extra|k s s' r r' Hs _ IH]; intros c Hc; [constructor|].
  inversion Hc as [|k0 s0 s'' r0 r'' Hs' Hr']; subst. constructor; [eapply sub_trans; eassumption|auto].
Qed.

Lemma grow_le m m' : grow m m' -> map_le m m'.
Proof.
  induction 1 as [extra|k s s' r r' Hs _ IH]; intros k0 x Hx; [cbn in Hx; discriminate|].
  cbn [get] in *. destruct (Nat.eqb k0 k); [apply Hs; assumption|apply IH; assumption].
Qed.

Lemma grow_put m k v : sub (get m k) v -> grow m (put m k v).
Proof.
  induction m as [|[k' v'] r IH]; intros H; cbn [put]; [constructor|].
  cbn [get] in H. destruct (Nat.eqb_spec k k') as [->|Hne].
  - constructor; [assumption|apply grow_refl].
  - constructor; [apply sub_refl|apply IH; assumption].
Qed.

Lemma grow_upd m k f : (forall s, sub s (f s)) -> grow m (upd m k f).
Proof. intros H. apply grow_put. apply H. Qed.

Definition grow_nd (m m' : smap) : Prop := grow m m' /\ (AllND m -> AllND m').

Lemma grow_nd_refl m : grow_nd m m. Proof. split; [apply grow_refl|auto]. Qed.
Lemma grow_nd_trans a b c : grow_nd a b -> grow_nd b c -> grow_nd a c.
Proof. intros (H1 & H2) (H3 & H4). split; [eapply grow_trans; eassumption|auto]. Qed.
Lemma grow_nd_upd m k f : good f -> grow_nd m (upd m k f).
Proof. intros (H1 & H2). split; [apply grow_upd; assumption|intros H; apply AllND_upd; assumption]. Qed.

Lemma grow_nd_le m m' : grow_nd m m' -> map_le m m'.
Proof. intros (H & _). apply grow_le, H. Qed.

Lemma total_size_cons k s r : total_size ((k, s) :: r) = length s + total_size r.
Proof. reflexivity. Qed.

Lemma size0_get m k : total_size m <= 0 -> get m k = [].
Proof.
  induction m as [|[k' v] r IH]; intros H; [reflexivity|].
  rewrite total_size_cons in H. cbn [get]. destruct v; [|inversion H].
  destruct (Nat.eqb k k'); [reflexivity|exact (IH H)].
Qed.

Lemma size_le m m' :
  grow m m' -> AllND m ->
  total_size m <= total_size m' /\ (total_size m' <= total_size m -> map_le m' m).
Proof.
  induction 1 as [extra|k s s' r r' Hs _ IH]; intros Hnd.
  - split; [apply Nat.le_0_l|]. intros H k. rewrite (size0_get _ _ H). apply sub_refl.
  - apply Forall_cons_iff in Hnd. destruct Hnd as (Hn & Hr). destruct (IH Hr) as (I1 & I2).
    destruct (sub_len s s' Hn Hs) as (S1 & S2). rewrite !total_size_cons.
    split; [apply Nat.add_le_mono; assumption|].
    intros H k0. destruct (add_le_cancel _ _ _ _ S1 I1 H) as (H1 & H2).
    cbn [get]. destruct (Nat.eqb k0 k); [exact (S2 H1)|exact (I2 H2 k0)].
Qed.

Section Closed.
Variable g : grammar.

Definition closed_in (m : smap) (x : regex) : Prop :=
  let s := get m (rid_of x) in
  match form_of g x with
  | FSym a => mem a s = true
  | FRef o => sub (get m (rid_of o)) s
  | FOpt o => sub (get m (rid_of o)) s /\ mem Eps s = true
  | FAlt ops => forall o, In o ops -> sub (get m (rid_of o)) s
  | FCat ops => sub (seq_first m ops) s
  end.

Lemma closed_in_at m x : closed_in m x -> closed_at g m x = true.
Proof.
  unfold closed_in.
  destruct x as [i t|i r|i ops|i ops|i ops|i o|i o|i o|i [o|]|i k]; cbn [closed_at form_of]; intros H;
    try exact H.
  - destruct (body_of g r); [apply subset_spec|]; exact H.
  - apply subset_spec, H.
  - apply forallb_forall. intros o Ho. apply subset_spec, H, Ho.
  - apply forallb_forall. intros o Ho. apply subset_spec, H, Ho.
  - apply andb_true_intro. split; [apply subset_spec|]; apply H.
  - apply subset_spec, H. left. reflexivity.
  - apply andb_true_intro. split; [apply subset_spec|]; apply H.
  - apply subset_spec, H. left. reflexivity.
Qed.

Definition closed_below (M : smap) (x : regex) : Prop := forall y, In y (subs x) -> closed_in M y.

Lemma closed_below_kids M x :
  closed_in M x -> (forall o, In o (kids x) -> closed_below M o) -> closed_below M x.
Proof.
  intros Hx Hk y Hy. rewrite subs_kids in Hy. destruct Hy as [<-|Hy]; [assumption|].
  apply in_flat_map in Hy. destruct Hy as (o & Ho & Hy). exact (Hk o Ho y Hy).
Qed.

Lemma self_first x : In x (subs x). Proof. apply subs_self. Qed.

(* A visit that changes nothing - it starts above M and ends below M, and maps only grow, so
   every map it goes through holds the sets of M - has performed at each node a write that
   added nothing: the inclusion of that node, read in M. *)
Definition visit_closes (o : regex) : Prop := forall m,
  grow_nd m (first_regex g o m)
  /\ forall M, map_le M m -> map_le (first_regex g o m) M -> closed_below M o.

Lemma alt_go_closes id : forall l, Forall visit_closes l -> forall m,
  grow_nd m (alt_go g id l m)
  /\ forall M o, map_le M m -> map_le (alt_go g id l m) M -> In o l ->
       closed_below M o /\ sub (get M (rid_of o)) (get M id).
Proof.
  induction l as [|op r IH]; intros Hl m; cbn [alt_go]; [split; [apply grow_nd_refl|intros ? ? _ _ []]|].
  apply Forall_cons_iff in Hl. destruct Hl as (Hop & Hr). destruct (Hop m) as (G1 & P1).
  set (m1 := first_regex g op m) in *.
  pose proof (grow_nd_upd m1 id _ (good_union (get m1 (rid_of op)))) as G2.
  destruct (IH Hr (upd m1 id (fun s => union s (get m1 (rid_of op))))) as (G3 & P3).
  split; [exact (grow_nd_trans _ _ _ G1 (grow_nd_trans _ _ _ G2 G3))|].
  intros M o H0 H1 [<-|Ho].
  - split; [exact (P1 M H0 (map_le_trans _ _ _ (grow_nd_le _ _ (grow_nd_trans _ _ _ G2 G3)) H1))|].
    intros y Hy. apply H1, (grow_nd_le _ _ G3). rewrite get_upd_same. apply mem_union. right. apply (grow_nd_le _ _ G1), H0, Hy.
  - exact (P3 M o (map_le_trans _ _ _ H0 (grow_nd_le _ _ (grow_nd_trans _ _ _ G1 G2))) H1 Ho).
Qed.

(* what the loop hands to the node contains the first set of the sequence *)
Lemma cat_go_closes : forall l, Forall visit_closes l ->
  forall m un acc m' un' acc', cat_go g l m un acc = (m', un', acc') ->
  grow_nd m m'
  /\ forall M, map_le M m -> map_le m' M ->
       (forall o, In o l -> closed_below M o)
       /\ forall s, (un = true /\ mem s (seq_first M l) = true) \/ (s <> Eps /\ mem s acc = true) ->
            mem s (if un' then add Eps acc' else acc') = true.
Proof.
  induction l as [|op r IH]; intros Hl m un acc m' un' acc' H; cbn [cat_go] in H.
  - injection H as <- <- <-. split; [apply grow_nd_refl|]. intros M _ _. split; [intros ? []|].
    intros s [(-> & Hs)|(_ & Hs)].
    + apply mem_add. left. cbn in Hs. rewrite orb_false_r in Hs. apply sym_eqb_eq, Hs.
    + destruct un; [apply mem_add; right|]; exact Hs.
  - apply Forall_cons_iff in Hl. destruct Hl as (Hop & Hr). destruct (Hop m) as (G1 & P1).
    set (m1 := first_regex g op m) in *. set (opf := get m1 (rid_of op)) in *.
    assert (H' : cat_go g r m1 (un && mem Eps opf) (if un then remove Eps (union acc opf) else acc) = (m', un', acc'))
      by (destruct un; exact H).
    destruct (IH Hr _ _ _ _ _ _ H') as (G2 & P2).
    split; [exact (grow_nd_trans _ _ _ G1 G2)|]. intros M H0 H1.
    pose proof (map_le_trans _ _ _ H0 (grow_nd_le _ _ G1)) as H01. destruct (P2 M H01 H1) as (Q1 & Q2). split.
    + intros o [<-|Ho]; [exact (P1 M H0 (map_le_trans _ _ _ (grow_nd_le _ _ G2) H1))|exact (Q1 o Ho)].
    + intros s Hs. apply Q2. destruct Hs as [(-> & Hs)|(Hne & Hs)]; cbn [andb].
      * apply mem_seq_first_cons in Hs. destruct Hs as [(Hne & Hs)|(He & Hs)]; [right|left].
        -- split; [exact Hne|]. apply mem_remove. split; [exact Hne|]. apply mem_union. right. apply H01, Hs.
        -- split; [apply H01, He|exact Hs].
      * right. split; [exact Hne|]. destruct un; [|exact Hs].
        apply mem_remove. split; [exact Hne|]. apply mem_union. left. exact Hs.
Qed.

Theorem first_regex_closes : forall x, visit_closes x.
Proof.
  induction x as [x IH] using kids_ind. intros m. rewrite (form_kids g) in IH.
  pose proof (grow_nd_upd m (rid_of x) _ good_id) as G0.
  cut (grow_nd m (first_regex g x m)
       /\ forall M, map_le M (upd m (rid_of x) (fun s => s)) -> map_le (first_regex g x m) M ->
            closed_in M x /\ forall o, In o (kids x) -> closed_below M o).
  { intros (G & H). split; [exact G|]. intros M H0 H1.
    destruct (H M (map_le_trans _ _ _ H0 (grow_nd_le _ _ G0)) H1) as (Hx & Hk). exact (closed_below_kids _ _ Hx Hk). }
  unfold closed_in. rewrite (form_kids g), first_regex_eq.
  destruct (form_of g x) as [a|b|o|ops|ops].
  - split; [apply grow_nd_upd, good_add|]. intros M _ H1. split; [|intros o []].
    apply H1. rewrite get_upd_same. apply mem_add. left. reflexivity.
  - split; [apply grow_nd_upd, good_union|]. intros M H0 H1. split; [|intros o []].
    intros y Hy. apply H1. rewrite get_upd_same. apply mem_union. right. rewrite <- (get_upd_id m (rid_of x)). apply H0, Hy.
  - destruct (Forall_inv IH (upd m (rid_of x) (fun s => s))) as (G1 & P1). cbv zeta. set (m1 := first_regex g o _) in *.
    pose proof (grow_nd_upd m1 (rid_of x) _ (good_comp _ _ (good_union (get m1 (rid_of o))) (good_add Eps))) as G2.
    split; [exact (grow_nd_trans _ _ _ G0 (grow_nd_trans _ _ _ G1 G2))|]. intros M H0 H1.
    pose proof (H1 (rid_of x)) as Hs. rewrite get_upd_same in Hs. split; [split|].
    + intros y Hy. apply Hs, mem_add. right. apply mem_union. right. apply (grow_nd_le _ _ G1), H0, Hy.
    + apply Hs, mem_add. left. reflexivity.
    + intros o' [<-|[]]. exact (P1 M H0 (map_le_trans _ _ _ (grow_nd_le _ _ G2) H1)).
  - destruct (alt_go_closes (rid_of x) ops IH (upd m (rid_of x) (fun s => s))) as (G1 & P1).
    split; [exact (grow_nd_trans _ _ _ G0 G1)|]. intros M H0 H1. split; intros o Ho; apply (P1 M o H0 H1 Ho).
  - destruct (cat_go g ops _ true []) as [[m1 un] acc] eqn:E.
    destruct (cat_go_closes ops IH _ _ _ _ _ _ E) as (G1 & P1).
    pose proof (grow_nd_upd m1 (rid_of x) _ (good_union (if un then add Eps acc else acc))) as G2.
    split; [exact (grow_nd_trans _ _ _ G0 (grow_nd_trans _ _ _ G1 G2))|]. intros M H0 H1.
    destruct (P1 M H0 (map_le_trans _ _ _ (grow_nd_le _ _ G2) H1)) as (P1a & P1b). split; [|exact P1a].
    intros s Hs. apply H1. rewrite get_upd_same. apply mem_union. right. apply P1b. left. auto.
Qed.

Lemma first_pass_closes m :
  grow_nd m (first_pass g m)
  /\ forall M, map_le M m -> map_le (first_pass g m) M -> forall y, In y (nodes_of g) -> closed_in M y.
Proof.
  unfold first_pass, nodes_of.
  generalize (g_rules g). intros l. revert m.
  induction l as [|ru l IH]; intros m; cbn [fold_left flat_map].
  - split; [apply grow_nd_refl|intros M _ _ y []].
  - destruct (r_body ru) as [b|] eqn:Eb; [|apply IH].
    destruct (IH (first_regex g b m)) as (G1 & P1). destruct (first_regex_closes b m) as (G0 & P0).
    split; [eapply grow_nd_trans; eassumption|].
    intros M H0 H1 y Hy. apply in_app_iff in Hy. destruct Hy as [Hy|Hy].
    + exact (P0 M H0 (map_le_trans _ _ _ (grow_nd_le _ _ G1) H1) y Hy).
    + exact (P1 M (map_le_trans _ _ _ H0 (grow_nd_le _ _ G0)) H1 y Hy).
Qed.

Theorem calc_first_closed fuel m : calc_first g fuel = Some m -> first_closed g m = true.
Proof.
  intros H.
  destruct (iterate_inv AllND _ (fun m => proj2 (proj1 (first_pass_closes m))) _ _ _ (Forall_nil _) H)
    as (m0 & Hnd & -> & Hsz).
  destruct (first_pass_closes m0) as ((Hg & _) & HP).
  apply forallb_forall. intros y Hy. apply closed_in_at.
  apply (HP (first_pass g m0)); [|apply map_le_refl|exact Hy].
  apply (size_le _ _ Hg Hnd). rewrite Hsz. apply Nat.le_refl.
Qed.

End Closed.
