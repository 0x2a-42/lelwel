(* The hypotheses of the theorems in FmtProofs.v are satisfiable: the real CST of

     r: (a // c\n | [b]) /* x\n\ty */ | 'k' ;\n

   (a rule declaration with an alternation, brackets, a line comment and a multi-line block comment
   containing a tab; tree as printed by `lv-harness fmtitems`, generated by tools/k4_fmtmodel.py). *)
From Coq Require Import List Arith Bool.
From LV Require Import Fmt FmtLemmas FmtProofs.
Import ListNotations.

Definition ex_src : list byte := [114; 58; 32; 40; 97; 32; 47; 47; 32; 99; 10; 32; 124; 32; 91; 98; 93; 41; 32; 47; 42; 32; 120; 10; 9; 121; 32; 42; 47; 32; 124; 32; 39; 107; 39; 32; 59; 10].

Definition ex_tree : tree :=
  FRule RFile [
    FRule RRuleDecl [
      FTok TOther [114] 0;
      FTok TColon [58] 1;
      FTok TWhitespace [32] 2;
      FRule RAlternation [
        FRule RParen [
          FTok TLPar [40] 3;
          FRule RAlternation [
            FRule RName [
              FTok TOther [97] 4];
            FTok TWhitespace [32] 5;
            FTok TLineComment [47; 47; 32; 99; 10] 6;
            FTok TWhitespace [32] 11;
            FTok TOr [124] 12;
            FTok TWhitespace [32] 13;
            FRule ROptional [
              FTok TLBrak [91] 14;
              FRule RName [
                FTok TOther [98] 15];
              FTok TRBrak [93] 16]];
          FTok TRPar [41] 17];
        FTok TWhitespace [32] 18;
        FTok TBlockComment [47; 42; 32; 120; 10; 9; 121; 32; 42; 47] 19;
        FTok TWhitespace [32] 29;
        FTok TOr [124] 30;
        FTok TWhitespace [32] 31;
        FRule RSymbol [
          FTok TOther [39; 107; 39] 32]];
      FTok TWhitespace [32] 35;
      FTok TSemi [59] 36];
    FTok TWhitespace [10] 37].

Lemma ex_tiles : leaves ex_tree = ex_src.
Proof. reflexivity. Qed.

Lemma ex_lexed : lexed ex_tree = true.
Proof. reflexivity. Qed.

Lemma ex_no_unreachable_kind : has_bad ex_tree = false.
Proof. reflexivity. Qed.

(* the items are computed once; every example below speaks about this list *)
Definition ex_its : list item := Eval lazy in gen_node ex_src 0 ex_tree.

Lemma ex_gen : gen ex_src ex_tree = Ok ex_its.
Proof. reflexivity. Qed.

Lemma ex_gen_inv : forall its, gen ex_src ex_tree = Ok its -> its = ex_its.
Proof. intros its H. rewrite ex_gen in H. injection H as <-. reflexivity. Qed.

Lemma ex_gen_ok : exists its, gen ex_src ex_tree = Ok its.
Proof. exists ex_its. exact ex_gen. Qed.

(* the alternation is forced onto several lines (a newline separates its first two alternatives),
   there are two separators, hence two pairs of multilineAlt conditions, and a raw string *)
Lemma ex_shape : forall its, gen ex_src ex_tree = Ok its ->
  cnt is_altA its = 2 /\ cnt is_altB its = 2 /\ cnt is_si its = 6 /\ cnt is_sg its = 2
  /\ In (ICond (CMultilineAlt true) [ISig StartIndent; ISig StartIndent] []) its
  /\ In (ISig Tab) its /\ In (ISig StartIgnoringIndent) its.
Proof.
  intros its ->%ex_gen_inv. repeat apply conj; try reflexivity.
  - exact (nth_error_In ex_its 25 eq_refl).
  - exact (nth_error_In ex_its 50 eq_refl).
  - exact (nth_error_In ex_its 47 eq_refl).
Qed.

Lemma ex_content : forall its, gen ex_src ex_tree = Ok its -> nonws (strs its) = nonws ex_src.
Proof.
  intros its H. rewrite <- ex_tiles. apply (fmt_nonws_preserved _ _ _ H ex_lexed).
Qed.

Lemma ex_balanced_all_multiline : forall its, gen ex_src ex_tree = Ok its ->
  cnt is_si (resolve (fun _ => true) (fun _ => true) 0 0 0 its)
  = cnt is_fi (resolve (fun _ => true) (fun _ => true) 0 0 0 its)
  /\ cnt is_si (resolve (fun _ => true) (fun _ => true) 0 0 0 its) = 10.
Proof.
  intros its H. split; [apply (fmt_indentation_balanced _ _ _ _ _ _ _ H)|].
  rewrite (ex_gen_inv its H). reflexivity.
Qed.

(* The two sides are different resolutions, both with the second condition of separator j answered by
   alpha (j + 1): on the left the StartIndents when alpha is constantly true (10; that list is balanced),
   on the right the FinishIndents when only alpha 0 is true (8).  That an unpaired resolution unbalances
   the indentation, so that fmt_indentation_balanced needs its pairing, is true of the right-hand list
   on its own (6 StartIndents, 8 FinishIndents); this statement does not say it. *)
Lemma ex_unpaired_resolution_unbalanced : forall its, gen ex_src ex_tree = Ok its ->
  cnt is_si (resolve (fun _ => true) (fun _ => true) 0 0 1 its)
  <> cnt is_fi (resolve (fun _ => true) (fun j => Nat.eqb j 0) 0 0 1 its).
Proof. intros its ->%ex_gen_inv. apply Nat.eqb_neq. reflexivity. Qed.

(* a tree the parser never builds: a Postfix node is the unreachable!() panic, and then there is no item list *)
Lemma ex_crash : gen [97] (FRule RFile [FRule RPostfix [FTok TOther [97] 0]]) = Crash CUnreachable.
Proof. reflexivity. Qed.
