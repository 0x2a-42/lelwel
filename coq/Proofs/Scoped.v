(* A static check of command-language programs - every variable is bound where it is used (the
   Rust block scoping of the emitted `let`s), every called rule function exists, `rec` is called
   with the arity of the nested `fn rec`, no `break` / `continue` / plain `return` leaves the closure
   of an ordered-choice alternative - and the theorem that a program passing it never reaches a
   [XStuck] state, whatever the input, the oracle and the fuel.  [XStuck] is the interpreter's
   rendering of "rustc would have rejected this statement" (Exec.v), so this is the part of
   "the emitted parser compiles" (C11) that is about names and control flow. *)
From Coq Require Import List Arith Bool.
From LV Require Import Cst Tree ABuild Runtime Exec FuelMono.
Import ListNotations.

Definition vmem (v : var) (sc : list var) : bool := existsb (var_eqb v) sc.
Definition keys (e : env) : list var := map fst e.

Section SC.
Variable prog : program.

Definition rule_exists (r : rid) : bool := existsb (fun x => Nat.eqb (fst x) r) (p_rules prog).

(* [hr]: the enclosing function has a nested `fn rec`, with (Some true) or without (Some false)
   the min_bp parameter; [brk]: a break/continue here stays inside the current closure;
   [ret]: a plain `return` is allowed here (not inside the closure of a choice alternative) *)
Fixpoint sc_stmt (hr : option bool) (brk ret : bool) (sc : list var) (s : stmt) {struct s} : option (list var) :=
  let fix sc_block (brk ret : bool) (sc : list var) (b : list stmt) {struct b} : bool :=
      match b with
      | [] => true
      | s :: r => match sc_stmt hr brk ret sc s with Some sc' => sc_block brk ret sc' r | None => false end
      end in
  let ok (b : bool) := if b then Some sc else None in
  match s with
  | SExpect _ _ _ => Some sc
  | SCall r _ => ok (rule_exists r)
  | SRec bp v _ =>
    ok (match hr with
        | Some hb => Bool.eqb (match bp with Some _ => true | None => false end) hb
        | None => false
        end && vmem v sc)
  | SLetMark v => Some (v :: sc)
  | SLetOpen => Some (VM :: sc)
  | SLetOpenBefore v => if vmem v sc then Some (VM :: sc) else None
  | SLetElide => Some (VElide :: sc)
  | SSetElide => ok (vmem VElide sc)
  | SKind decl _ => if decl then Some (VKind :: sc) else ok (vmem VKind sc)
  | SClose k a =>
    ok (vmem VM sc && match k with Some _ => true | None => vmem VKind sc end && (if a then vmem VLhs sc else true))
  | SIfNotElide b => ok (vmem VElide sc && sc_block brk ret sc b)
  | SCreate v _ => ok (vmem v sc)
  | SAction _ | SAssert _ _ | SSetChoice _ | SError _ | SAdvErr _ | SOcr => Some sc
  | SMatch arms d => ok (forallb (fun a => sc_block brk ret sc (snd a)) arms && sc_block brk ret sc d)
  | SLoop b => ok (sc_block true ret sc b)
  | SBreak | SContinue => ok brk
  | SIfBpBreak _ => ok (vmem VMinBp sc && brk)
  | SOrdChoice se sk alts _ last _ =>
    ok ((if se then vmem VElide sc else true) && (if sk then vmem VKind sc else true)
        && forallb (fun a => sc_block false false sc (snd a)) alts && sc_block brk ret sc last)
  | SReturnIfError el opt =>
    ok (match el with
        | ENone => vmem VM sc
        | ECond => vmem VElide sc && vmem VStart sc
        | EUncond => true
        end && (opt || ret))
  end.

Definition sc_blk (hr : option bool) : bool -> bool -> list var -> list stmt -> bool :=
  fix sc_block (brk ret : bool) (sc : list var) (b : list stmt) {struct b} : bool :=
    match b with
    | [] => true
    | s :: r => match sc_stmt hr brk ret sc s with Some sc' => sc_block brk ret sc' r | None => false end
    end.

Definition hr_of (f : rule_fn) : option bool :=
  match fn_rec f with Some (hb, _) => Some hb | None => None end.

Definition fn_scoped (f : rule_fn) : bool :=
  sc_blk (hr_of f) true true [] (fn_body f)
  && match fn_rec f with
     | Some (hb, b) => sc_blk (Some hb) true true (if hb then [VLhs; VMinBp] else [VLhs]) b
     | None => true
     end.

Definition prog_scoped : bool := forallb (fun rf => fn_scoped (snd rf)) (p_rules prog).

(* equations (by conversion: the local fixpoint of [sc_stmt] is [sc_blk]) *)
Lemma sc_blk_cons hr brk ret sc s r :
  sc_blk hr brk ret sc (s :: r)
  = match sc_stmt hr brk ret sc s with Some sc' => sc_blk hr brk ret sc' r | None => false end.
Proof. reflexivity. Qed.
Lemma sc_ifnotelide hr brk ret sc b :
  sc_stmt hr brk ret sc (SIfNotElide b) = if vmem VElide sc && sc_blk hr brk ret sc b then Some sc else None.
Proof. reflexivity. Qed.
Lemma sc_match hr brk ret sc arms d :
  sc_stmt hr brk ret sc (SMatch arms d)
  = if forallb (fun a => sc_blk hr brk ret sc (snd a)) arms && sc_blk hr brk ret sc d then Some sc else None.
Proof. reflexivity. Qed.
Lemma sc_loop hr brk ret sc b :
  sc_stmt hr brk ret sc (SLoop b) = if sc_blk hr true ret sc b then Some sc else None.
Proof. reflexivity. Qed.
Lemma sc_ordchoice hr brk ret sc se sk alts lp last m :
  sc_stmt hr brk ret sc (SOrdChoice se sk alts lp last m)
  = if (if se then vmem VElide sc else true) && (if sk then vmem VKind sc else true)
       && forallb (fun a => sc_blk hr false false sc (snd a)) alts && sc_blk hr brk ret sc last
    then Some sc else None.
Proof. reflexivity. Qed.

Lemma env_get_some e v : vmem v (keys e) = true -> exists x, env_get e v = Some x.
Proof.
  induction e as [|[w y] r IH]; cbn [keys map vmem existsb env_get fst]; intros H; [discriminate|].
  destruct (var_eqb v w); [eexists; reflexivity|]. cbn [orb] in H. apply IH. exact H.
Qed.

Lemma env_set_keys e v x e' : env_set e v x = Some e' -> keys e' = keys e.
Proof.
  revert e'. induction e as [|[w y] r IH]; cbn [env_set]; intros e' H; [discriminate|].
  destruct (var_eqb v w); [injection H as <-; reflexivity|].
  destruct (env_set r v x) as [r'|]; [|discriminate]. injection H as <-.
  cbn [keys map fst]. f_equal. exact (IH _ eq_refl).
Qed.

Lemma env_set_some e v x : vmem v (keys e) = true -> exists e', env_set e v x = Some e' /\ keys e' = keys e.
Proof.
  intros H. assert (exists e', env_set e v x = Some e') as [e' He]; [|exact (ex_intro _ e' (conj He (env_set_keys _ _ _ _ He)))].
  induction e as [|[w y] r IH]; cbn [keys map vmem existsb env_set fst] in *; [discriminate|].
  destruct (var_eqb v w); [eexists; reflexivity|]. destruct (IH H) as [r' ->]. eexists; reflexivity.
Qed.

Lemma keys_length e : length (keys e) = length e.
Proof. apply map_length. Qed.

Lemma env_leave_keys n e pre sc0 :
  keys e = pre ++ sc0 -> length sc0 = n -> keys (env_leave n e) = sc0.
Proof.
  intros Hk Hn. unfold env_leave, keys. rewrite <- skipn_map. fold (keys e). rewrite Hk.
  assert (Hl : length e - n = length pre).
  { rewrite <- keys_length, Hk, app_length, <- Hn. apply Nat.add_sub. }
  rewrite Hl. rewrite skipn_app, skipn_all, Nat.sub_diag. reflexivity.
Qed.

Definition okres (brk ret : bool) (sc : list var) (sc' : list var) (r : xres (outcome * env * pstate)) : Prop :=
  match r with
  | XStuck _ => False
  | XOk (o, e', _) =>
    (exists pre, keys e' = pre ++ sc)
    /\ (o = ONormal -> keys e' = sc')
    /\ (o = OBreak \/ o = OContinue -> brk = true)
    /\ (o = ORet -> ret = true)
  | _ => True
  end.

Definition okblk (brk ret : bool) (sc : list var) (r : xres (outcome * env * pstate)) : Prop :=
  match r with
  | XStuck _ => False
  | XOk (o, e', _) =>
    keys e' = sc
    /\ (o = OBreak \/ o = OContinue -> brk = true)
    /\ (o = ORet -> ret = true)
  | _ => True
  end.

Definition okfn (r : xres (bool * pstate)) : Prop :=
  match r with XStuck _ => False | _ => True end.

Definition esc_ok (brk ret : bool) (o : outcome) : Prop :=
  match o with OBreak | OContinue => brk = true | ORet => ret = true | _ => True end.

Lemma esc_ok_iff brk ret o :
  esc_ok brk ret o <-> (o = OBreak \/ o = OContinue -> brk = true) /\ (o = ORet -> ret = true).
Proof.
  split.
  - intros H. split; [intros [->| ->]|intros ->]; exact H.
  - intros [Hb Hr]. destruct o; cbn; auto.
Qed.

Lemma okblk_XOk brk ret sc o e st : okblk brk ret sc (XOk (o, e, st)) <-> keys e = sc /\ esc_ok brk ret o.
Proof. rewrite esc_ok_iff. reflexivity. Qed.

Lemma okres_XOk brk ret sc sc' o e st :
  okres brk ret sc sc' (XOk (o, e, st))
  <-> (exists pre, keys e = pre ++ sc) /\ (o = ONormal -> keys e = sc') /\ esc_ok brk ret o.
Proof. rewrite esc_ok_iff. reflexivity. Qed.

Lemma okres_keep brk ret sc o e st : keys e = sc -> esc_ok brk ret o -> okres brk ret sc sc (XOk (o, e, st)).
Proof. intros Hk Ho. apply okres_XOk. split; [exists []; exact Hk|]. split; [intros _; exact Hk|exact Ho]. Qed.

Lemma okres_same brk ret o e st :
  (o = OBreak \/ o = OContinue -> brk = true) -> (o = ORet -> ret = true) ->
  okres brk ret (keys e) (keys e) (XOk (o, e, st)).
Proof. intros Hb Hr. apply okres_keep; [reflexivity|]. apply esc_ok_iff. split; assumption. Qed.

Lemma okres_push brk ret v x e st : okres brk ret (keys e) (v :: keys e) (XOk (ONormal, (v, x) :: e, st)).
Proof. apply okres_XOk. split; [exists [v]; reflexivity|]. split; [reflexivity|exact I]. Qed.

Lemma okres_of_blk {brk ret sc r} : okblk brk ret sc r -> okres brk ret sc sc r.
Proof.
  destruct r as [[[o e] st]| | |]; trivial. intros [Hk Ho]%okblk_XOk. exact (okres_keep _ _ _ _ _ _ Hk Ho).
Qed.

Lemma okblk_leave brk ret n o e st pre sc0 :
  keys e = pre ++ sc0 -> length sc0 = n -> esc_ok brk ret o -> okblk brk ret sc0 (XOk (o, env_leave n e, st)).
Proof. intros Hk Hn Ho. apply okblk_XOk. split; [exact (env_leave_keys _ _ _ _ Hk Hn)|exact Ho]. Qed.

Lemma okres_after_blk {brk0 ret0 sc0 brk ret sc sc' r k} :
  okblk brk0 ret0 sc0 r ->
  (forall o e st, keys e = sc0 -> esc_ok brk0 ret0 o -> okres brk ret sc sc' (k (o, e, st))) ->
  okres brk ret sc sc'
    match r with XOk a => k a | XPanic w => XPanic w | XFuel => XFuel | XStuck w => XStuck w end.
Proof.
  destruct r as [[[o e] st]| | |]; trivial. intros [Hk Ho]%okblk_XOk H. exact (H o e st Hk Ho).
Qed.

Lemma ok_inv {A} (b : bool) (x y : A) : (if b then Some x else None) = Some y -> b = true /\ y = x.
Proof. destruct b; [intros [= <-]; split; reflexivity|discriminate]. Qed.

Lemma env_get_if (b : bool) e v :
  (if b then vmem v (keys e) else true) = true -> exists x, (if b then env_get e v else Some 0) = Some x.
Proof. destruct b; [apply env_get_some|eexists; reflexivity]. Qed.

(* an ordered choice puts a saved variable back *)
Lemma env_restore (b : bool) v x e sc :
  (b = true -> vmem v sc = true) -> keys e = sc ->
  exists e', (if b then env_set e v x else Some e) = Some e' /\ keys e' = sc.
Proof.
  intros Hv Hk. destruct b; [|exists e; split; [reflexivity|exact Hk]].
  destruct (env_set_some e v x) as [e' [He Hk']]; [rewrite Hk; exact (Hv eq_refl)|].
  exists e'. split; [exact He|]. rewrite Hk'. exact Hk.
Qed.

Arguments okres : simpl never.
Arguments okblk : simpl never.
Arguments okfn : simpl never.

Variable cx : pctx.
Variable orc : oracles.

(* statements that run no block and call no function: they need no induction *)
Definition flat (s : stmt) : bool :=
  match s with
  | SCall _ _ | SRec _ _ _ | SIfNotElide _ | SMatch _ _ | SLoop _ | SOrdChoice _ _ _ _ _ _ => false
  | _ => true
  end.

Lemma exec_flat_scoped hr brk ret fuel rec_of s e st sc' :
  flat s = true -> sc_stmt hr brk ret (keys e) s = Some sc' ->
  okres brk ret (keys e) sc' (exec cx prog orc (S fuel) rec_of s e st).
Proof.
  intros F Hsc. destruct s; try discriminate F.
  - (* SExpect *) injection Hsc as <-. simpl. destruct (Nat.eqb (cur st) t).
    + destruct (p_advance cx st false); [now apply okres_keep|exact I].
    + destruct (try_ && in_choice st); now apply okres_keep.
  - (* SLetMark *) injection Hsc as <-. simpl.
    destruct (p_mark st) as [[mk s1]|]; [apply okres_push|exact I].
  - (* SLetOpen *) injection Hsc as <-. simpl.
    destruct (p_open st) as [[mk s1]|]; [apply okres_push|exact I].
  - (* SLetOpenBefore *) apply ok_inv in Hsc as [E ->]. simpl.
    destruct (env_get_some _ _ E) as [x ->].
    destruct (p_open_before st x) as [[mk s1]|]; [apply okres_push|exact I].
  - (* SLetElide *) injection Hsc as <-. apply okres_push.
  - (* SSetElide *) apply ok_inv in Hsc as [E ->]. simpl.
    destruct (env_set_some _ _ 1 E) as [e' [-> Hk]]. now apply okres_keep.
  - (* SKind *) destruct decl.
    + injection Hsc as <-. apply okres_push.
    + apply ok_inv in Hsc as [E ->]. simpl.
      destruct (env_set_some _ _ k E) as [e' [-> Hk]]. now apply okres_keep.
  - (* SClose *) apply ok_inv in Hsc as [[[E1 E2]%andb_prop E3]%andb_prop ->]. simpl.
    destruct (env_get_some _ _ E1) as [m ->].
    assert (exists k0, match k with Some k0 => Some k0 | None => env_get e VKind end = Some k0) as [k0 ->].
    { destruct k; [eexists; reflexivity|exact (env_get_some _ _ E2)]. }
    destruct (p_close st m k0) as [[closed s1]|]; [|exact I].
    destruct assign_lhs; [destruct (env_set_some _ _ closed E3) as [e' [-> Hk]]|]; now apply okres_keep.
  - (* SCreate *) apply ok_inv in Hsc as [E ->]. simpl.
    destruct (env_get_some _ _ E) as [x ->].
    destruct (p_open_before st x) as [[on s1]|]; [|exact I].
    destruct (p_close s1 on k) as [[c2 s2]|]; [now apply okres_keep|exact I].
  - (* SAction *) injection Hsc as <-. now apply okres_keep.
  - (* SAssert *) injection Hsc as <-. simpl.
    destruct (o_assert orc n st); [destruct (ocr && in_choice st)|]; now apply okres_keep.
  - (* SSetChoice *) injection Hsc as <-. now apply okres_keep.
  - (* SBreak *) apply ok_inv in Hsc as [E ->]. now apply okres_keep.
  - (* SContinue *) apply ok_inv in Hsc as [E ->]. now apply okres_keep.
  - (* SIfBpBreak *) apply ok_inv in Hsc as [[E1 E2]%andb_prop ->]. simpl.
    destruct (env_get_some _ _ E1) as [mb ->]. destruct (n <? mb); now apply okres_keep.
  - (* SReturnIfError *) apply ok_inv in Hsc as [[E1 E2]%andb_prop ->]. simpl.
    destruct (active_error st); [|now apply okres_keep].
    assert (Ho : esc_ok brk ret (if opt then ORetNone else ORet)) by (destruct opt; [exact I|exact E2]).
    destruct e0.
    + destruct (env_get_some _ _ E1) as [m ->].
      destruct (p_close st m kError) as [[closed s1]|]; [now apply okres_keep|exact I].
    + now apply okres_keep.
    + apply andb_prop in E1 as [Ea Eb].
      destruct (env_get_some _ _ Ea) as [[|x] ->], (env_get_some _ _ Eb) as [y ->]; [|now apply okres_keep].
      destruct (p_open_before st y) as [[m s1]|]; [|exact I].
      destruct (p_close s1 m kError) as [[closed s2]|]; [now apply okres_keep|exact I].
  - (* SError *) injection Hsc as <-. now apply okres_keep.
  - (* SAdvErr *) injection Hsc as <-. simpl.
    destruct (p_advance_with_error cx st m); [now apply okres_keep|exact I].
  - (* SOcr *) injection Hsc as <-. simpl. destruct (in_choice st); now apply okres_keep.
Qed.

Hypothesis Hprog : prog_scoped = true.

Definition rec_ok (hr : option bool) (rec_of : option (bool * bool * list stmt)) : Prop :=
  match hr, rec_of with
  | Some hb, Some (_, _, body) => sc_blk (Some hb) true true (if hb then [VLhs; VMinBp] else [VLhs]) body = true
  | None, None => True
  | _, _ => False
  end.

Lemma find_rule_scoped r f : find_rule prog r = Some f -> fn_scoped f = true.
Proof. exact (find_rule_forallb prog fn_scoped r f Hprog). Qed.

Lemma rule_exists_find r : rule_exists r = true -> exists f, find_rule prog r = Some f.
Proof.
  unfold rule_exists, find_rule. intros [x [Hin Hx]]%existsb_exists.
  destruct (find (fun x => Nat.eqb (fst x) r) (p_rules prog)) as [y|] eqn:E; [eexists; reflexivity|].
  apply (find_none _ _ E) in Hin. cbn in Hin. rewrite Hx in Hin. discriminate.
Qed.

Theorem exec_scoped : forall fuel,
  (forall hr rec_of brk ret s e st sc',
      rec_ok hr rec_of -> sc_stmt hr brk ret (keys e) s = Some sc' ->
      okres brk ret (keys e) sc' (exec cx prog orc fuel rec_of s e st))
  /\ (forall hr rec_of brk ret b e st,
      rec_ok hr rec_of -> sc_blk hr brk ret (keys e) b = true ->
      okblk brk ret (keys e) (exec_block cx prog orc fuel rec_of b e st))
  /\ (forall hr rec_of brk ret n l e st pre sc0,
      rec_ok hr rec_of -> keys e = pre ++ sc0 -> length sc0 = n -> sc_blk hr brk ret (keys e) l = true ->
      okblk brk ret sc0 (exec_seq cx prog orc fuel rec_of n l e st))
  /\ (forall hr rec_of brk ret sv sel sk alts lp last m e1 st1,
      rec_ok hr rec_of ->
      (fst sel = true -> vmem VElide (keys e1) = true) -> (fst sk = true -> vmem VKind (keys e1) = true) ->
      forallb (fun a => sc_blk hr false false (keys e1) (snd a)) alts = true ->
      sc_blk hr brk ret (keys e1) last = true ->
      okres brk ret (keys e1) (keys e1) (exec_alts cx prog orc fuel rec_of sv sel sk alts lp last m e1 st1))
  /\ (forall f st, fn_scoped f = true -> okfn (call_fn cx prog orc fuel f st)).
Proof.
  induction fuel as [|fuel IH].
  { repeat split; intros; exact I. }
  destruct IH as (IHe & IHb & IHs & IHa & IHc).
  split; [|split; [|split; [|split]]].
  - intros hr rec_of brk ret s e st sc' Hrec Hsc.
    destruct (flat s) eqn:F; [exact (exec_flat_scoped hr brk ret fuel rec_of s e st sc' F Hsc)|].
    destruct s; try discriminate F.
    + (* SCall *) apply ok_inv in Hsc as [E ->]. simpl.
      destruct (rule_exists_find _ E) as [f Hf]. rewrite Hf.
      pose proof (IHc f st (find_rule_scoped _ _ Hf)) as Hc.
      destruct (call_fn cx prog orc fuel f st) as [[some s1]| | |]; [|exact Hc..].
      destruct (q && negb some); now apply okres_keep.
    + (* SRec *) apply ok_inv in Hsc as [[E1 E2]%andb_prop ->]. simpl.
      destruct hr as [hb|]; [|discriminate E1].
      destruct rec_of as [[[opt hb'] body]|]; [|contradiction].
      destruct (env_get_some _ _ E2) as [mk ->].
      refine (okres_after_blk (IHb (Some hb) _ true true body _ st Hrec _) _).
      * destruct bp, hb; try discriminate E1; exact Hrec.
      * intros o1 e1 s1 _ _. destruct (q && _); now apply okres_keep.
    + (* SIfNotElide *) rewrite sc_ifnotelide in Hsc. apply ok_inv in Hsc as [[E1 E2]%andb_prop ->]. simpl.
      destruct (env_get_some _ _ E1) as [[|x] ->]; [|now apply okres_keep].
      exact (okres_of_blk (IHb hr rec_of brk ret b e st Hrec E2)).
    + (* SMatch *) rewrite sc_match in Hsc. apply ok_inv in Hsc as [[E1 E2]%andb_prop ->].
      rewrite exec_match_eq.
      apply okres_of_blk, (IHb hr), (pick_arm_forallb orc (sc_blk hr brk ret (keys e))); assumption.
    + (* SLoop *) rewrite sc_loop in Hsc. apply ok_inv in Hsc as [E ->]. rewrite exec_loop_eq.
      apply (okres_after_blk (IHb hr rec_of true ret b e st Hrec E)). intros o1 e1 s1 Hk Ho.
      assert (Hnext : okres brk ret (keys e) (keys e) (exec cx prog orc fuel rec_of (SLoop b) e1 s1)).
      { rewrite <- Hk. apply (IHe hr); [exact Hrec|]. rewrite sc_loop, Hk, E. reflexivity. }
      destruct o1; try exact Hnext; now apply okres_keep.
    + (* SOrdChoice *) rewrite sc_ordchoice in Hsc.
      apply ok_inv in Hsc as [[[[E1 E2]%andb_prop E3]%andb_prop E4]%andb_prop ->]. simpl.
      destruct (env_get_if _ _ _ E1) as [el0 ->]. destruct (env_get_if _ _ _ E2) as [k0 ->].
      apply (IHa hr); try assumption; cbn [fst]; intros ->; assumption.
  - intros hr rec_of brk ret b e st Hrec Hsc.
    exact (IHs hr rec_of brk ret (length e) b e st [] (keys e) Hrec eq_refl (keys_length e) Hsc).
  - intros hr rec_of brk ret n l e st pre sc0 Hrec Hk Hn Hsc.
    destruct l as [|s r]; [exact (okblk_leave brk ret _ ONormal _ _ _ _ Hk Hn I)|].
    rewrite sc_blk_cons in Hsc. destruct (sc_stmt hr brk ret (keys e) s) as [sc1|] eqn:Es; [|discriminate Hsc].
    pose proof (IHe hr rec_of brk ret s e st sc1 Hrec Es) as He. rewrite exec_seq_cons.
    destruct (exec cx prog orc fuel rec_of s e st) as [[[o1 e1] s1]| | |]; [|exact He..].
    apply okres_XOk in He as ([pre1 Hk1] & Hn1 & Ho). rewrite Hk, app_assoc in Hk1.
    destruct o1; [|exact (okblk_leave brk ret n _ e1 s1 _ _ Hk1 Hn Ho)..].
    apply (IHs hr rec_of brk ret n r e1 s1 _ sc0 Hrec Hk1 Hn). rewrite (Hn1 eq_refl). exact Hsc.
  - intros hr rec_of brk ret sv sel sk alts lp last m e1 st1 Hrec Hsel Hsk Halts Hlast.
    destruct alts as [|[pats body] r]; simpl.
    + destruct (tok_in _ lp).
      * apply (okres_after_blk (IHb hr rec_of brk ret last e1 _ Hrec Hlast)).
        intros o e2 s2 Hk Ho. now apply okres_keep.
      * destruct (p_advance_with_error cx _ m); [now apply okres_keep|exact I].
    + apply andb_prop in Halts as [Hbody Hr].
      destruct (tok_in (cur st1) pats); [|apply (IHa hr); assumption].
      apply (okres_after_blk (IHb hr rec_of false false body e1 st1 Hrec Hbody)).
      intros o e2 s2 Hk Ho. destruct o; try discriminate Ho; [now apply okres_keep|].
      (* ORetNone: restore and try the next alternative *)
      destruct (env_restore (fst sel) VElide (snd sel) e2 _ Hsel Hk) as [e3 [-> Hk3]].
      destruct (env_restore (fst sk) VKind (snd sk) e3 _ Hsk Hk3) as [e4 [-> Hk4]].
      rewrite <- Hk4. apply (IHa hr); rewrite ?Hk4; assumption.
  - intros f st [Hbody Hrecb]%andb_prop. rewrite call_fn_S.
    assert (Hr : rec_ok (hr_of f) match fn_rec f with Some (hb, b) => Some (fn_opt f, hb, b) | None => None end).
    { unfold rec_ok, hr_of. destruct (fn_rec f) as [[hb b]|]; [exact Hrecb|exact I]. }
    pose proof (IHb (hr_of f) _ true true (fn_body f) [] st Hr Hbody) as Hb.
    destruct (exec_block _ _ _ _ _ _ _ _) as [[[o1 e1] s1]| | |]; [exact I|exact Hb..].
Qed.

Theorem parse_entry_not_stuck fuel r root msg w :
  find_rule prog r <> None -> parse_entry cx prog orc fuel r root msg <> XStuck w.
Proof.
  intros Hr. unfold parse_entry.
  destruct (p_open init_state) as [[m st0]|]; [|discriminate].
  destruct (find_rule prog r) as [f|] eqn:Ef; [|contradiction].
  pose proof (proj2 (proj2 (proj2 (proj2 (exec_scoped fuel)))) f (p_init_skip cx st0) (find_rule_scoped _ _ Ef)) as Hc.
  destruct (call_fn cx prog orc fuel f (p_init_skip cx st0)) as [[some st2]| | |]; try discriminate; [|contradiction].
  destruct (p_close_error_node st2) as [st3|]; [|discriminate].
  destruct (if Nat.eqb (pos st3) _ then _ else _) as [st7|]; [|discriminate].
  destruct (c_close_root (cstd st7) m root); discriminate.
Qed.

End SC.

(* non-vacuity: the translated parser of ExecExamples.v (markers, creation, committed ordered choice,
   a Pratt rule with min_bp) passes the check; a program using an unbound mark does not *)
From LV Require ExecExamples.
Example ex_scoped : prog_scoped ExecExamples.prog = true.
Proof. vm_compute. reflexivity. Qed.
Example ex_not_scoped :
  prog_scoped (mkProg [(0, mkFn false [SCreate (VMk 1) 2] None)] 0 1 0 []) = false.
Proof. vm_compute. reflexivity. Qed.
