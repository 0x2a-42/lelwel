(* Facts about lists, and about the list-based sets and association-list maps of Sema.v. *)
From Coq Require Import List Arith Bool.
From LV Require Import Sema.
Import ListNotations.

Lemma fold_left_inv {A B} (I : A -> Prop) (f : A -> B -> A) l :
  (forall a b, In b l -> I a -> I (f a b)) -> forall a, I a -> I (fold_left f l a).
Proof.
  induction l as [|b l IH]; intros H a Ha; cbn [fold_left]; [assumption|].
  apply IH; [intros a' b' Hb; apply H; right; assumption|]. apply H; [left; reflexivity|assumption].
Qed.

Lemma forallb_iff {A} (f : A -> bool) (P : A -> Prop) l :
  (forall x, f x = true <-> P x) -> (forallb f l = true <-> forall x, In x l -> P x).
Proof. intros H. rewrite forallb_forall. split; intros G x Hx; apply H, G, Hx. Qed.

Lemma NoDup_map_inj {A B} (f : A -> B) l x y :
  NoDup (map f l) -> In x l -> In y l -> f x = f y -> x = y.
Proof.
  induction l as [|z l IH]; cbn [map In]; intros Hnd Hx Hy He; [contradiction|].
  apply NoDup_cons_iff in Hnd. destruct Hnd as (Hz & Hl).
  destruct Hx as [->|Hx], Hy as [->|Hy]; [reflexivity| | |auto].
  - contradict Hz. rewrite He. apply in_map, Hy.
  - contradict Hz. rewrite <- He. apply in_map, Hx.
Qed.

Lemma NoDup_app_inv {A} (l1 l2 : list A) :
  NoDup (l1 ++ l2) -> NoDup l1 /\ NoDup l2 /\ (forall x, In x l1 -> ~ In x l2).
Proof.
  induction l1 as [|a r IH]; cbn [app]; intros H.
  - split; [constructor|]. split; [assumption|intros x []].
  - apply NoDup_cons_iff in H. destruct H as (Ha & Hr). destruct (IH Hr) as (H1 & H2 & H3).
    rewrite in_app_iff in Ha. split; [constructor; auto|]. split; [assumption|].
    intros x [<-|Hx]; auto.
Qed.

Lemma NoDup_snoc {A} (s : list A) x : NoDup s -> ~ In x s -> NoDup (s ++ [x]).
Proof.
  intros Hs Hx. apply (NoDup_Add (Add_app x s [])). rewrite app_nil_r. auto.
Qed.

Lemma add_le_cancel a a' b b' : a <= a' -> b <= b' -> a' + b' <= a + b -> a' <= a /\ b' <= b.
Proof.
  intros Ha Hb H. split.
  - apply (Nat.add_le_mono_r _ _ b). eapply Nat.le_trans; [apply Nat.add_le_mono_l, Hb|exact H].
  - apply (Nat.add_le_mono_l _ _ a). eapply Nat.le_trans; [apply Nat.add_le_mono_r, Ha|exact H].
Qed.

Lemma in_list_sum n l : In n l -> n <= list_sum l.
Proof.
  induction l as [|m r IH]; [contradiction|]. change (list_sum (m :: r)) with (m + list_sum r).
  intros [->|H]; [apply Nat.le_add_r|]. eapply Nat.le_trans; [apply IH, H|]. rewrite Nat.add_comm. apply Nat.le_add_r.
Qed.

Lemma In_when {A} (b : bool) (y x : A) : In x (if b then [y] else []) <-> b = true /\ x = y.
Proof.
  destruct b; cbn.
  - split; [intros [<-|[]]; auto|intros (_ & ->); left; reflexivity].
  - split; [intros []|intros (H & _); discriminate].
Qed.

Lemma nonempty_In {A} (l : list A) : nonempty l = true <-> exists x, In x l.
Proof. destruct l as [|x r]; split; [discriminate|intros (x & [])|exists x; left; reflexivity|reflexivity]. Qed.

Lemma nonempty_filter {A} (f : A -> bool) l : nonempty (filter f l) = existsb f l.
Proof. induction l as [|x r IH]; cbn; [reflexivity|]. destruct (f x); [reflexivity|exact IH]. Qed.

Lemma In_skipn {A} (l : list A) : forall n x, In x (skipn n l) <-> exists j, n <= j /\ nth_error l j = Some x.
Proof.
  induction l as [|y r IH]; intros n x.
  - rewrite skipn_nil. split; [intros []|intros ([|j] & _ & [=])].
  - destruct n as [|n]; cbn [skipn].
    + split.
      * intros H. apply In_nth_error in H. destruct H as (j & H). exists j. split; [apply Nat.le_0_l|exact H].
      * intros (j & _ & H). eapply nth_error_In, H.
    + rewrite IH. split.
      * intros (j & Hj & H). exists (S j). split; [apply le_n_S, Hj|exact H].
      * intros ([|j] & Hj & H); [inversion Hj|]. exists j. split; [apply le_S_n, Hj|exact H].
Qed.

Lemma nth_error_enumerate {A} (l : list A) : forall k i,
  nth_error (enumerate k l) i = option_map (fun x => (k + i, x)) (nth_error l i).
Proof.
  induction l as [|x r IH]; intros k i; cbn [enumerate].
  - destruct i; reflexivity.
  - destruct i as [|i]; cbn [nth_error option_map].
    + rewrite Nat.add_0_r. reflexivity.
    + rewrite IH, Nat.add_succ_comm. reflexivity.
Qed.

Lemma In_enumerate {A} (l : list A) k i x :
  In (i, x) (enumerate k l) <-> exists j, i = k + j /\ nth_error l j = Some x.
Proof.
  split.
  - intros H. apply In_nth_error in H. destruct H as (j & H). rewrite nth_error_enumerate in H.
    destruct (nth_error l j) as [y|] eqn:E; [|discriminate]. injection H as <- <-. exists j. auto.
  - intros (j & -> & H). apply (nth_error_In _ j). rewrite nth_error_enumerate, H. reflexivity.
Qed.

Lemma in_flat_map_enumerate {A B} (f : nat -> A -> list B) g l d : forall k,
  In d (flat_map (fun '(i, x) => f i x ++ g x) (enumerate k l)) <->
  In d (flat_map (fun '(i, x) => f i x) (enumerate k l)) \/ In d (flat_map g l).
Proof.
  induction l as [|x r IH]; intros k; cbn [enumerate flat_map]; [split; [auto|intros [[]|[]]]|].
  rewrite !in_app_iff, IH. split; intros [[H|H]|[H|H]]; auto.
Qed.

(* lists used as sets: membership by a boolean equality, insertion at the end unless present
   (Sema.mem/add over symbols, Sema.nmem/nadd over node ids) *)
Section Eqb.
Context {A : Type} (eqb : A -> A -> bool).
Hypothesis eqb_eq : forall a b, eqb a b = true <-> a = b.

Lemma existsb_eqb x l : existsb (eqb x) l = true <-> In x l.
Proof.
  rewrite existsb_exists. split.
  - intros (y & Hy & He). apply eqb_eq in He. subst. assumption.
  - intros H. exists x. split; [assumption|apply eqb_eq; reflexivity].
Qed.

Lemma In_insert x y l : In x (if existsb (eqb y) l then l else l ++ [y]) <-> x = y \/ In x l.
Proof.
  destruct (existsb (eqb y) l) eqn:E.
  - apply existsb_eqb in E. split; [auto|]. intros [->|H]; assumption.
  - rewrite in_app_iff. cbn. split; [intros [H|[<-|[]]]; auto|intros [->|H]; auto].
Qed.

Lemma NoDup_insert y l : NoDup l -> NoDup (if existsb (eqb y) l then l else l ++ [y]).
Proof.
  intros H. destruct (existsb (eqb y) l) eqn:E; [exact H|].
  apply NoDup_snoc; [exact H|]. rewrite <- existsb_eqb, E. discriminate.
Qed.
End Eqb.

Lemma sym_eqb_eq a b : sym_eqb a b = true <-> a = b.
Proof.
  destruct a as [|x], b as [|y]; cbn; split; intros H; try discriminate; try reflexivity.
  - apply Nat.eqb_eq in H. congruence.
  - injection H as ->. apply Nat.eqb_refl.
Qed.

Lemma sym_eqb_refl a : sym_eqb a a = true.
Proof. apply sym_eqb_eq. reflexivity. Qed.

Lemma mem_In x s : mem x s = true <-> In x s.
Proof. apply existsb_eqb, sym_eqb_eq. Qed.

Lemma mem_add x y s : mem x (add y s) = true <-> x = y \/ mem x s = true.
Proof. rewrite !mem_In. apply (In_insert sym_eqb sym_eqb_eq). Qed.

Lemma mem_union x s1 s2 : mem x (union s1 s2) = true <-> mem x s1 = true \/ mem x s2 = true.
Proof.
  unfold union. revert s1. induction s2 as [|y s2 IH]; intros s1; cbn [fold_left].
  - split; [left; assumption|intros [H|H]; [assumption|discriminate]].
  - rewrite IH, mem_add. cbn [mem existsb]. rewrite orb_true_iff, sym_eqb_eq.
    split; [intros [[H|H]|H]|intros [H|[H|H]]]; auto.
Qed.

Lemma mem_remove x y s : mem x (remove y s) = true <-> x <> y /\ mem x s = true.
Proof.
  unfold remove. rewrite !mem_In, filter_In. rewrite negb_true_iff.
  split.
  - intros (H1 & H2). split; [|assumption]. intros ->. rewrite sym_eqb_refl in H2. discriminate.
  - intros (H1 & H2). split; [assumption|]. destruct (sym_eqb y x) eqn:E; [|reflexivity].
    apply sym_eqb_eq in E. congruence.
Qed.

Lemma mem_diff x s1 s2 : mem x (diff s1 s2) = true <-> mem x s1 = true /\ mem x s2 = false.
Proof.
  unfold diff. rewrite (mem_In x (filter _ _)), filter_In, negb_true_iff, <- mem_In. reflexivity.
Qed.

Lemma mem_inter x s1 s2 : mem x (inter s1 s2) = true <-> mem x s1 = true /\ mem x s2 = true.
Proof. unfold inter. rewrite (mem_In x (filter _ _)), filter_In, <- mem_In. reflexivity. Qed.

Lemma mem_fold_union {B} (f : B -> set) x l : forall s,
  mem x (fold_left (fun s y => union s (f y)) l s) = true <->
  mem x s = true \/ exists y, In y l /\ mem x (f y) = true.
Proof.
  induction l as [|y r IH]; intros s; cbn [fold_left In].
  - split; [auto|]. intros [H|(z & [] & _)]. exact H.
  - rewrite IH, mem_union. split.
    + intros [[H|H]|(z & Hz & H)]; [left; exact H|right; exists y; auto|right; exists z; auto].
    + intros [H|(z & [<-|Hz] & H)]; [left; left; exact H|left; right; exact H|right; exists z; auto].
Qed.

Definition sub (s s' : set) : Prop := forall x, mem x s = true -> mem x s' = true.

Lemma sub_refl s : sub s s. Proof. intros x H; exact H. Qed.
Lemma sub_trans a b c : sub a b -> sub b c -> sub a c. Proof. unfold sub; auto. Qed.

Lemma subset_spec s1 s2 : subset s1 s2 = true <-> sub s1 s2.
Proof.
  unfold subset. rewrite forallb_forall. split; intros H x Hx; apply H, mem_In, Hx.
Qed.

Lemma subset_mem s1 s2 x : subset s1 s2 = true -> mem x s1 = true -> mem x s2 = true.
Proof. intros H. apply subset_spec, H. Qed.

Lemma NoDup_add x s : NoDup s -> NoDup (add x s).
Proof. apply (NoDup_insert sym_eqb sym_eqb_eq). Qed.

Lemma NoDup_union s1 s2 : NoDup s1 -> NoDup (union s1 s2).
Proof.
  unfold union. revert s1. induction s2 as [|y r IH]; intros s1 H; cbn [fold_left]; [assumption|].
  apply IH. apply NoDup_add. assumption.
Qed.

Lemma NoDup_remove x s : NoDup s -> NoDup (remove x s).
Proof. apply NoDup_filter. Qed.

Lemma sub_len s s' : NoDup s -> sub s s' -> length s <= length s' /\ (length s' <= length s -> sub s' s).
Proof.
  intros Hnd Hs. assert (Hi : incl s s') by (intros x Hx; apply mem_In, Hs, mem_In, Hx).
  split; [apply NoDup_incl_length; assumption|].
  intros Hl x Hx. apply mem_In. apply (NoDup_length_incl Hnd Hl Hi). apply mem_In, Hx.
Qed.

(* duplicate-free sets that only grew, with the sum of their sizes not larger than before, did not grow *)
Lemma sum_pointwise_sets {A} (ks : list A) (s s' : A -> set) :
  (forall k, In k ks -> NoDup (s k) /\ sub (s k) (s' k)) ->
  list_sum (map (fun k => length (s k)) ks) <= list_sum (map (fun k => length (s' k)) ks)
  /\ (list_sum (map (fun k => length (s' k)) ks) <= list_sum (map (fun k => length (s k)) ks) ->
      forall k, In k ks -> sub (s' k) (s k)).
Proof.
  induction ks as [|a r IH]; intros H; [split; [apply Nat.le_refl|intros _ k []]|].
  destruct IH as (I1 & I2); [intros k Hk; apply H; right; exact Hk|].
  destruct (H a (or_introl eq_refl)) as (Hnd & Hs). destruct (sub_len _ _ Hnd Hs) as (L1 & L2).
  cbn [map]. change (list_sum (?x :: ?l)) with (x + list_sum l).
  split; [apply Nat.add_le_mono; assumption|].
  intros Hle. destruct (add_le_cancel _ _ _ _ L1 I1 Hle) as (H1 & H2).
  intros k [<-|Hk]; [apply L2, H1|apply I2; assumption].
Qed.

(* the functions the analyses apply to a stored set: nothing is lost, no duplicates arise *)
Definition good (f : set -> set) : Prop := (forall s, sub s (f s)) /\ (forall s, NoDup s -> NoDup (f s)).

Lemma good_id : good (fun s => s).
Proof. split; [intros s; apply sub_refl|auto]. Qed.
Lemma good_add x : good (add x).
Proof. split; [intros s y Hy; apply mem_add; auto|intros s; apply NoDup_add]. Qed.
Lemma good_union X : good (fun s => union s X).
Proof. split; [intros s y Hy; apply mem_union; auto|intros s; apply NoDup_union]. Qed.
Lemma good_comp f h : good f -> good h -> good (fun s => h (f s)).
Proof. intros (F1 & F2) (H1 & H2). split; [intros s; eapply sub_trans; [apply F1|apply H1]|auto]. Qed.

Lemma nmem_In x l : nmem x l = true <-> In x l.
Proof. apply existsb_eqb, Nat.eqb_eq. Qed.

Lemma In_nadd x y l : In x (nadd y l) <-> x = y \/ In x l.
Proof. apply (In_insert Nat.eqb Nat.eqb_eq). Qed.

Lemma NoDup_nadd x l : NoDup l -> NoDup (nadd x l).
Proof. apply (NoDup_insert Nat.eqb Nat.eqb_eq). Qed.

Lemma get_put_same m k v : get (put m k v) k = v.
Proof.
  induction m as [|[k' v'] r IH]; cbn.
  - rewrite Nat.eqb_refl. reflexivity.
  - destruct (Nat.eqb_spec k k') as [->|Hne]; cbn.
    + rewrite Nat.eqb_refl. reflexivity.
    + destruct (Nat.eqb_spec k k'); [contradiction|]. assumption.
Qed.

Lemma get_put_other m k k' v : k' <> k -> get (put m k v) k' = get m k'.
Proof.
  intros Hne. induction m as [|[k0 v0] r IH]; cbn.
  - destruct (Nat.eqb_spec k' k); [contradiction|reflexivity].
  - destruct (Nat.eqb_spec k k0) as [->|Hn0]; cbn.
    + destruct (Nat.eqb_spec k' k0); [contradiction|reflexivity].
    + destruct (Nat.eqb_spec k' k0); [reflexivity|assumption].
Qed.

Lemma get_upd_same m k f : get (upd m k f) k = f (get m k).
Proof. unfold upd. apply get_put_same. Qed.

Lemma get_upd_other m k k' f : k' <> k -> get (upd m k f) k' = get m k'.
Proof. unfold upd. apply get_put_other. Qed.

Lemma get_upd_id m k k' : get (upd m k (fun s => s)) k' = get m k'.
Proof. destruct (Nat.eq_dec k' k) as [->|H]; [apply get_upd_same|apply get_upd_other, H]. Qed.

Definition map_le (m m' : smap) : Prop := forall k, sub (get m k) (get m' k).

Lemma map_le_refl m : map_le m m. Proof. intros k; apply sub_refl. Qed.
Lemma map_le_trans a b c : map_le a b -> map_le b c -> map_le a c. Proof. intros H1 H2 k. eapply sub_trans; [apply H1|apply H2]. Qed.

Definition AllND (m : smap) : Prop := Forall (fun p => NoDup (snd p)) m.

Lemma get_nd m k : AllND m -> NoDup (get m k).
Proof.
  induction 1 as [|[k' v] r Hv _ IH]; cbn [get]; [constructor|].
  destruct (Nat.eqb k k'); assumption.
Qed.

Lemma AllND_put m k v : AllND m -> NoDup v -> AllND (put m k v).
Proof.
  intros H Hv. induction H as [|[k' v'] r Hv' Hr IH]; cbn [put]; [repeat constructor; assumption|].
  destruct (Nat.eqb k k'); constructor; assumption.
Qed.

Lemma AllND_upd m k f : AllND m -> (forall s, NoDup s -> NoDup (f s)) -> AllND (upd m k f).
Proof. intros H Hf. apply AllND_put; [assumption|]. apply Hf, get_nd, H. Qed.

Lemma iterate_inv (I : smap -> Prop) pass :
  (forall m, I m -> I (pass m)) ->
  forall fuel m m', I m -> iterate fuel pass m = Some m' ->
  exists m0, I m0 /\ m' = pass m0 /\ total_size (pass m0) = total_size m0.
Proof.
  intros Hp. induction fuel as [|fuel IH]; intros m m' Hm H; cbn [iterate] in H; [discriminate|].
  destruct (Nat.eqb_spec (total_size (pass m)) (total_size m)) as [He|_].
  - injection H as <-. exists m. auto.
  - eapply IH; [apply Hp, Hm|exact H].
Qed.
