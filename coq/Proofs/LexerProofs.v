(* The lexer model (Model/Lexer.v), for all texts (lists of code points), no bound:
   tiling    the token spans of `lex t` are non-empty and contiguous from byte 0 to the UTF-8 byte length
             of t, and every span boundary is a character boundary (the byte length of a prefix of t);
   diag      every lexer diagnostic (for an invalid escape sequence with check_string's arithmetic
             `start+i-1 .. start+i+len`) has a non-empty span inside the text on character boundaries;
   lossless  the lexemes of `lex t` concatenate to t, and so do the slices of t cut out by the token spans.
   `chunks` runs `chunks_fuel` with fuel = length t, which never runs out: each token consumes at least
   one character (`chunks_cons`). *)
From Coq Require Import List NArith Arith Bool Lia.
From LV Require Import Lexer.
Import ListNotations.

Lemma utf8_len_bounds : forall c, 1 <= utf8_len c <= 4.
Proof.
  intro c. unfold utf8_len.
  destruct (c <? 128)%N; [lia|]. destruct (c <? 2048)%N; [lia|]. destruct (c <? 65536)%N; lia.
Qed.

Lemma blen_app : forall a b, blen (a ++ b) = blen a + blen b.
Proof. induction a as [|c a IH]; intro b; simpl; [reflexivity|]. rewrite IH. lia. Qed.

Lemma blen_nonempty_pos : forall l, l <> [] -> 0 < blen l.
Proof. intros [|c r] H; [congruence|]. simpl. pose proof (utf8_len_bounds c). lia. Qed.

Lemma chunks_fuel_indep : forall f1 f2 t, length t <= f1 -> length t <= f2 -> chunks_fuel f1 t = chunks_fuel f2 t.
Proof.
  induction f1 as [|f1 IH]; intros f2 t H1 H2.
  - destruct t; simpl in H1; [|lia]. destruct f2; reflexivity.
  - destruct t as [|c r]; [destruct f2; reflexivity|].
    destruct f2 as [|f2]; [simpl in H2; lia|].
    simpl. destruct (next_token c r) as [res n]. f_equal.
    apply IH; rewrite skipn_length; simpl in H1, H2; lia.
Qed.

Lemma chunks_nil : chunks [] = [].
Proof. reflexivity. Qed.

Lemma chunks_cons : forall c r,
  chunks (c :: r) = mkchunk (fst (next_token c r)) (c :: firstn (snd (next_token c r)) r)
                    :: chunks (skipn (snd (next_token c r)) r).
Proof.
  intros c r. unfold chunks. simpl. destruct (next_token c r) as [res n]. simpl. f_equal.
  apply chunks_fuel_indep; rewrite skipn_length; lia.
Qed.

Lemma chunks_spec : forall t,
  concat (map ck_lexeme (chunks t)) = t /\ Forall (fun ch => ck_lexeme ch <> []) (chunks t).
Proof.
  intro t. induction t as [t IH] using (induction_ltof1 _ (@length N)).
  destruct t as [|c r]; [split; [reflexivity|constructor]|].
  rewrite chunks_cons. destruct (IH (skipn (snd (next_token c r)) r)) as [H1 H2].
  { unfold ltof. rewrite skipn_length. simpl. lia. }
  split; [|constructor; [discriminate|exact H2]].
  simpl. rewrite H1, firstn_skipn. reflexivity.
Qed.

Theorem chunks_lossless : forall t, concat (map ck_lexeme (chunks t)) = t.
Proof. intro t. apply chunks_spec. Qed.

Definition tok_kind (x : tok) : kind := fst (fst x).
Definition tok_start (x : tok) : nat := snd (fst x).
Definition tok_end (x : tok) : nat := snd x.
Definition d_start (d : diag) : nat := snd (fst d).
Definition d_end (d : diag) : nat := snd d.

Fixpoint tiles (p : nat) (ts : list tok) (e : nat) : Prop :=
  match ts with
  | [] => p = e
  | x :: r => tok_start x = p /\ p < tok_end x /\ tiles (tok_end x) r e
  end.

Definition boundary (t : text) (b : nat) : Prop := exists k, b = blen (firstn k t).

Lemma boundary_prefix : forall pre x, boundary (pre ++ x) (blen pre).
Proof. intros pre x. exists (length pre). rewrite firstn_app, firstn_all, Nat.sub_diag. simpl. rewrite app_nil_r. reflexivity. Qed.

Lemma boundary_le : forall t b, boundary t b -> b <= blen t.
Proof.
  intros t b [k ->]. pose proof (blen_app (firstn k t) (skipn k t)) as H. rewrite firstn_skipn in H. lia.
Qed.

Lemma boundary_zero : forall t, boundary t 0.
Proof. intro t. exists 0. reflexivity. Qed.

Lemma boundary_end : forall t, boundary t (blen t).
Proof. intro t. exists (length t). rewrite firstn_all. reflexivity. Qed.

Definition span_ok (t : text) (s e : nat) : Prop := s < e /\ e <= blen t /\ boundary t s /\ boundary t e.

Definition suffix_at (t : text) (off : nat) (s : text) : Prop := exists pre, t = pre ++ s /\ off = blen pre.

Lemma suffix_at_app : forall t off a s, suffix_at t off (a ++ s) -> suffix_at t (blen a + off) s.
Proof.
  intros t off a s (pre & -> & ->). exists (pre ++ a). rewrite <- app_assoc, blen_app. split; [reflexivity|lia].
Qed.

Lemma suffix_at_cons : forall t off c s, suffix_at t off (c :: s) -> suffix_at t (utf8_len c + off) s.
Proof. intros t off c s H. apply (suffix_at_app t off [c]) in H. simpl in H. rewrite Nat.add_0_r in H. exact H. Qed.

Lemma suffix_at_nil : forall t off, suffix_at t off [] -> off = blen t.
Proof. intros t off (pre & -> & ->). rewrite app_nil_r. reflexivity. Qed.

Lemma suffix_at_span : forall t off a s, a <> [] -> suffix_at t off (a ++ s) -> span_ok t off (blen a + off).
Proof.
  intros t off a s Ha (pre & -> & ->). apply blen_nonempty_pos in Ha.
  assert (He : boundary (pre ++ a ++ s) (blen a + blen pre)).
  { rewrite Nat.add_comm, <- blen_app, app_assoc. apply boundary_prefix. }
  split; [lia|]. split; [apply boundary_le; exact He|]. split; [apply boundary_prefix|exact He].
Qed.

Lemma check_str_spans : forall s t off rest, suffix_at t off (s ++ rest) ->
  Forall (fun d => span_ok t (d_start d) (d_end d)) (check_str off s).
Proof.
  intro s.
  (* check_str steps over one character or two: the claim is carried for s and for c :: s together *)
  set (P := fun s => forall t off rest, suffix_at t off (s ++ rest) ->
    Forall (fun d => span_ok t (d_start d) (d_end d)) (check_str off s)).
  enough (H : P s /\ forall c, P (c :: s)) by exact (proj1 H).
  induction s as [|d s [IH1 IH2]]; unfold P in *.
  - split; [constructor|]. intros c t off rest _. simpl. destruct (c =? 92)%N; constructor.
  - split; [exact (IH2 d)|]. intros c t off rest H. simpl check_str.
    destruct (N.eqb_spec c 92) as [->|_]; [|exact (IH2 d _ _ rest (suffix_at_cons _ _ _ _ H))].
    assert (Hrec := IH1 _ _ rest (suffix_at_cons _ _ _ _ (suffix_at_cons _ _ _ _ H))).
    destruct ((d =? 39)%N || (d =? 92)%N); [exact Hrec|]. constructor; [|exact Hrec].
    apply (suffix_at_span t off [92; d]%N (s ++ rest)) in H; [|discriminate].
    replace (utf8_len 92 + off - 1) with off by (simpl; lia).
    replace (utf8_len d + (utf8_len 92 + off)) with (blen [92; d]%N + off) by (simpl; lia). exact H.
Qed.

(* the token kind `place` (`tokenize`) gives a chunk: an unterminated comment is still a BlockComment
   token, the other two errors are Error tokens *)
Definition res_kind (r : lres) : kind :=
  match r with
  | LOk k => k
  | LErr UnterminatedComment => KBlockComment
  | LErr _ => KError
  end.

Definition chunk_diags (pos e : nat) (ch : chunk) : list diag :=
  match ck_res ch with
  | LOk k => if kind_is_str k then check_str pos (ck_lexeme ch) else []
  | LErr UnterminatedComment => [(DUnterminatedComment, pos, e)]
  | LErr UnterminatedString => [(DUnterminatedString, pos, e)]
  | LErr Invalid => [(DInvalidToken, pos, e)]
  end.

Lemma place_cons : forall pos ch cs,
  place pos (ch :: cs) =
  let e := blen (ck_lexeme ch) + pos in
  ((res_kind (ck_res ch), pos, e) :: fst (place e cs), chunk_diags pos e ch ++ snd (place e cs)).
Proof.
  intros pos ch cs. unfold chunk_diags. simpl. destruct (place (blen (ck_lexeme ch) + pos) cs).
  destruct (ck_res ch) as [k|[]]; reflexivity.
Qed.

Lemma place_spec : forall cs t pos,
  Forall (fun ch => ck_lexeme ch <> []) cs -> suffix_at t pos (concat (map ck_lexeme cs)) ->
  tiles pos (fst (place pos cs)) (blen t)
  /\ Forall (fun x => span_ok t (tok_start x) (tok_end x)) (fst (place pos cs))
  /\ Forall (fun d => span_ok t (d_start d) (d_end d)) (snd (place pos cs)).
Proof.
  induction cs as [|ch cs IH]; intros t pos Hne Hat.
  - split; [exact (suffix_at_nil _ _ Hat)|split; constructor].
  - apply Forall_cons_iff in Hne as [Hlx Hne']. rewrite place_cons. cbv zeta.
    destruct (IH t _ Hne' (suffix_at_app _ _ _ _ Hat)) as (IHt & IHk & IHd).
    pose proof (suffix_at_span _ _ _ _ Hlx Hat) as Hs.
    split; [exact (conj eq_refl (conj (proj1 Hs) IHt))|]. split; [constructor; assumption|].
    apply Forall_app. split; [|exact IHd].
    unfold chunk_diags. destruct (ck_res ch) as [k|[]]; try (constructor; [exact Hs|constructor]).
    destruct (kind_is_str k); [exact (check_str_spans _ _ _ _ Hat)|constructor].
Qed.

Lemma chunks_suffix_at : forall t, suffix_at t 0 (concat (map ck_lexeme (chunks t))).
Proof. intro t. rewrite (proj1 (chunks_spec t)). exists []. split; reflexivity. Qed.

Lemma lex_spec : forall t ts ds, lex t = (ts, ds) ->
  tiles 0 ts (blen t)
  /\ Forall (fun x => span_ok t (tok_start x) (tok_end x)) ts
  /\ Forall (fun d => span_ok t (d_start d) (d_end d)) ds.
Proof.
  intros t ts ds H. pose proof (place_spec (chunks t) t 0 (proj2 (chunks_spec t))) as Hs.
  fold (lex t) in Hs. rewrite H in Hs. apply Hs. apply chunks_suffix_at.
Qed.

Theorem lex_token_spans_valid : forall t ts ds, lex t = (ts, ds) ->
  Forall (fun x => span_ok t (tok_start x) (tok_end x)) ts.
Proof. intros t ts ds H. apply (lex_spec t ts ds H). Qed.

Theorem lex_tiling : forall t ts ds, lex t = (ts, ds) ->
  tiles 0 ts (blen t)
  /\ Forall (fun x => boundary t (tok_start x) /\ boundary t (tok_end x)) ts.
Proof.
  intros t ts ds H. destruct (lex_spec t ts ds H) as (Ht & Hk & _). split; [exact Ht|].
  eapply Forall_impl; [|exact Hk]. intros x Hx. apply Hx.
Qed.

Theorem lex_diag_spans : forall t ts ds, lex t = (ts, ds) ->
  Forall (fun d => span_ok t (d_start d) (d_end d)) ds.
Proof. intros t ts ds H. apply (lex_spec t ts ds H). Qed.

Fixpoint drop_bytes (n : nat) (t : text) : text :=
  match t with
  | [] => []
  | c :: r => match n with 0 => t | _ => drop_bytes (n - utf8_len c) r end
  end.

Fixpoint take_bytes (n : nat) (t : text) : text :=
  match t with
  | [] => []
  | c :: r => match n with 0 => [] | _ => c :: take_bytes (n - utf8_len c) r end
  end.

Definition slice (t : text) (s e : nat) : text := take_bytes (e - s) (drop_bytes s t).

Lemma bytes_cons : forall c n r,
  drop_bytes (utf8_len c + n) (c :: r) = drop_bytes n r
  /\ take_bytes (utf8_len c + n) (c :: r) = c :: take_bytes n r.
Proof.
  intros c n r. simpl. pose proof (utf8_len_bounds c).
  destruct (utf8_len c + n) eqn:E; [lia|]. rewrite <- E, Nat.add_comm, Nat.add_sub. split; reflexivity.
Qed.

Lemma drop_bytes_app : forall a b, drop_bytes (blen a) (a ++ b) = b.
Proof.
  induction a as [|c a IH]; intro b; [destruct b; reflexivity|].
  simpl blen. simpl app. rewrite (proj1 (bytes_cons c _ _)). apply IH.
Qed.

Lemma take_bytes_app : forall a b, take_bytes (blen a) (a ++ b) = a.
Proof.
  induction a as [|c a IH]; intro b; [destruct b; reflexivity|].
  simpl blen. simpl app. rewrite (proj2 (bytes_cons c _ _)), IH. reflexivity.
Qed.

Lemma suffix_at_slice : forall t off a s, suffix_at t off (a ++ s) -> slice t off (blen a + off) = a.
Proof.
  intros t off a s (pre & -> & ->). unfold slice. rewrite drop_bytes_app, Nat.add_sub. apply take_bytes_app.
Qed.

Lemma place_slices : forall cs t pos, suffix_at t pos (concat (map ck_lexeme cs)) ->
  map (fun x => slice t (tok_start x) (tok_end x)) (fst (place pos cs)) = map ck_lexeme cs.
Proof.
  induction cs as [|ch cs IH]; intros t pos Hat; [reflexivity|].
  rewrite place_cons. simpl map.
  rewrite (IH _ _ (suffix_at_app _ _ _ _ Hat)). f_equal. exact (suffix_at_slice _ _ _ _ Hat).
Qed.

Theorem lex_slices_lossless : forall t,
  concat (map (fun x => slice t (tok_start x) (tok_end x)) (fst (lex t))) = t.
Proof.
  intro t. unfold lex. rewrite place_slices; [apply chunks_lossless|apply chunks_suffix_at].
Qed.

Lemma place_kinds : forall cs pos, map tok_kind (fst (place pos cs)) = map (fun ch => res_kind (ck_res ch)) cs.
Proof.
  induction cs as [|ch cs IH]; intro pos; [reflexivity|]. rewrite place_cons. simpl. rewrite IH. reflexivity.
Qed.

Theorem lex_kinds : forall t, map tok_kind (fst (lex t)) = map (fun ch => res_kind (ck_res ch)) (chunks t).
Proof. intro t. exact (place_kinds (chunks t) 0). Qed.

Local Open Scope N_scope.
(* `a: 'é\q' 12 /*x` : Id Colon Ws Str(with an invalid escape behind a 2-byte character) Ws Error Ws BlockComment(unterminated) *)
Definition ex_text : text := [97; 58; 32; 39; 233; 92; 113; 39; 32; 49; 50; 32; 47; 42; 120].

Example ex_lex : lex ex_text =
  ([(KId, 0, 1); (KColon, 1, 2); (KWhitespace, 2, 3); (KStr, 3, 9); (KWhitespace, 9, 10); (KError, 10, 12);
    (KWhitespace, 12, 13); (KBlockComment, 13, 16)]%nat,
   [(DInvalidEscape, 6, 8); (DInvalidToken, 10, 12); (DUnterminatedComment, 13, 16)]%nat).
Proof. vm_compute. reflexivity. Qed.

Example ex_tiling : tiles 0 (fst (lex ex_text)) (blen ex_text).
Proof. exact (proj1 (lex_tiling ex_text _ _ ex_lex)). Qed.

Example ex_blen : blen ex_text = 16%nat.
Proof. reflexivity. Qed.
