(* C19 over the model's whole (finite) domain.  Evaluated are the rows without -s and with
   verbosity 0 ([cli_table_plain_ok]), lifted with forallb_forall and the completeness of the
   enumeration; [run] looks at neither of the two, by reflexivity ([run_short_verbose_irrelevant]);
   hence [row_ok] for every flag record, whatever the verbosity ([cli_ok_every_flags]).  The
   full table [cli_table_ok] is a corollary. *)
From Coq Require Import List Bool Arith Lia.
From LV Require Import Cli.
Import ListNotations.

Lemma in_bools b : In b bools.
Proof. destruct b; cbn; auto. Qed.

Lemma in_flat_map_bools {B} (f : bool -> list B) b y : In y (f b) -> In y (flat_map f bools).
Proof. intros H. apply in_flat_map. exists b. split; [apply in_bools|exact H]. Qed.

Lemma all_flags_complete f : f_verbose f <= 2 -> In f all_flags.
Proof.
  destruct f as [c fm g s vb o]. cbn [f_verbose]. intros Hv. unfold all_flags.
  apply (in_flat_map_bools _ c), (in_flat_map_bools _ fm), (in_flat_map_bools _ g), (in_flat_map_bools _ s).
  apply in_flat_map. exists vb. split; [cbn; lia|apply in_map, in_bools].
Qed.

Lemma all_worlds_complete w : In w all_worlds.
Proof.
  destruct w as [l p ow fmt]. unfold all_worlds.
  apply (in_flat_map_bools _ l), (in_flat_map_bools _ p), (in_flat_map_bools _ ow), in_map, in_bools.
Qed.

(* [all_rows] over a list of flags *)
Definition rows_of (fs : list flags) : list (flags * world * verdict) :=
  flat_map (fun f => flat_map (fun w => map (fun v => (f, w, v)) all_verdicts) all_worlds) fs.

Lemma in_rows_of fs f w v : In f fs -> In (f, w, v) (rows_of fs).
Proof.
  intros Hf. apply in_flat_map. exists f. split; [exact Hf|].
  apply in_flat_map. exists w. split; [apply all_worlds_complete|]. apply in_map. destruct v; cbn; auto 10.
Qed.

Lemma all_rows_complete f w v : f_verbose f <= 2 -> In (f, w, v) all_rows.
Proof. intros Hv. apply (in_rows_of all_flags), all_flags_complete, Hv. Qed.

Definition plain_flags (f : flags) : bool := negb (f_short f) && Nat.eqb (f_verbose f) 0.

Lemma cli_table_plain_ok : forallb row_ok (rows_of (filter plain_flags all_flags)) = true.
Proof. vm_compute. reflexivity. Qed.

Lemma run_short_verbose_irrelevant c fm g s1 s2 v1 v2 o w v :
  run (mkFlags c fm g s1 v1 o) w v = run (mkFlags c fm g s2 v2 o) w v.
Proof. reflexivity. Qed.

Theorem cli_ok_every_flags f w v : row_ok (f, w, v) = true.
Proof.
  destruct f as [c fm g s vb o].
  assert (H : row_ok (mkFlags c fm g false 0 o, w, v) = true).
  { pose proof cli_table_plain_ok as H. rewrite forallb_forall in H. apply H, in_rows_of, filter_In.
    split; [apply all_flags_complete; cbn; lia|reflexivity]. }
  unfold row_ok in *. rewrite (run_short_verbose_irrelevant c fm g s false vb 0 o w v). exact H.
Qed.

Lemma cli_table_ok : forallb row_ok all_rows = true.
Proof. apply forallb_forall. intros [[f w] v] _. apply cli_ok_every_flags. Qed.

Theorem no_output_for_rejected f w v es ex :
  run f w v = (es, ex) -> has_error v = true ->
  writes PGenerated es = false /\ writes PLexer es = false /\ writes PParser es = false /\ writes PGraph es = false.
Proof.
  unfold run. intros H He. destruct v; try discriminate.
  all: destruct (f_format f); [destruct (f_check f)|]; cbn [has_error] in H; injection H as <- _; cbn; auto.
Qed.
