(* Read-back (C13, lexing stage): every sequence of well-formed lexical items - tokens AND trivia -
   rendered one after the other lexes back to exactly those items, with no diagnostic, provided
   that no item can fuse with what follows it.

   item      abstract token or trivia; `wf`: its lexeme is one the lexer takes for that kind (strings
             are built from plain characters and the escapes \' and \\ only).
   nofuse    the side condition between an item and the text behind it, decided on the first character
             of that text (for `/` on more).  It is exact (`nofuse_necessary`): where it fails, the first
             token of the text is not the item.  A separator may be empty exactly where nofuse holds.
   ext       how many characters of the text behind an item the token that starts with the item takes;
             `nofuse a rest` says `ext a rest = 0` (nofuse_ext), and one step lemma (item_token) gives
             the token cut from `render a ++ rest` for every `rest`: the item itself when ext is 0,
             something longer otherwise.
   The definitions the theorems are stated in stand first; `name_ext`, `ext` and `cuts` serve the proofs. *)
From Coq Require Import List NArith Arith Bool Lia.
From LV Require Import Lexer LexerProofs.
Import ListNotations.

Local Open Scope N_scope.
Arguments N.eqb : simpl never.
Arguments N.leb : simpl never.
Arguments N.ltb : simpl never.

Definition hd_not (p : N -> bool) (r : text) : bool :=
  match r with
  | [] => true
  | d :: _ => negb (p d)
  end.

Definition is_ident (w : text) : bool :=
  match w with
  | c :: a => is_alpha c && forallb is_idc a
  | [] => false
  end.

(* an optional name as in `@name`, `n>name` *)
Definition opt_ident_ok (w : text) : bool := match w with [] => true | _ => is_ident w end.
Definition name_nofuse (w rest : text) : bool :=
  match w with [] => hd_not is_alpha rest | _ => hd_not is_idc rest end.

Inductive keyword := WToken | WStart | WRight | WSkip | WPart.
Inductive schar := SPlain (c : N) | SEsc (c : N).

Inductive item :=
| IKw (k : keyword)
| IPunct (c : N)                   (* one of : ; = ( ) [ ] | * + ^ ~ & / *)
| IId (w : text)
| IStr (body : list schar)
| IPredNum (ds : text)             (* ?n *)
| IPredT                           (* ?t *)
| IAction (ds : text)              (* #n *)
| IAssert (ds : text)              (* !n *)
| IMarker (ds : text)              (* <n *)
| IRename (w : text)               (* @ or @name *)
| ICreate (ds w : text)            (* > n> >name n>name *)
| IWs (s : text)
| ILine (b : text)                 (* //b\n *)
| IDoc (b : text)                  (* ///b\n *)
| IBlock (b : text).               (* /*b*/ *)

Definition kw_text (k : keyword) : text :=
  match k with WToken => kw_token | WStart => kw_start | WRight => kw_right | WSkip => kw_skip | WPart => kw_part end.
Definition kw_kind (k : keyword) : kind :=
  match k with WToken => KToken | WStart => KStart | WRight => KRight | WSkip => KSkip | WPart => KPart end.

Definition render_schar (x : schar) : text := match x with SPlain c => [c] | SEsc c => [92; c] end.
Definition str_body (body : list schar) : text := concat (map render_schar body).

Definition render (a : item) : text :=
  match a with
  | IKw k => kw_text k
  | IPunct c => [c]
  | IId w => w
  | IStr body => 39 :: str_body body ++ [39]
  | IPredNum ds => 63 :: ds
  | IPredT => [63; 116]
  | IAction ds => 35 :: ds
  | IAssert ds => 33 :: ds
  | IMarker ds => 60 :: ds
  | IRename w => 64 :: w
  | ICreate ds w => ds ++ 62 :: w
  | IWs s => s
  | ILine b => 47 :: 47 :: b ++ [10]
  | IDoc b => 47 :: 47 :: 47 :: b ++ [10]
  | IBlock b => 47 :: 42 :: b ++ [42; 47]
  end.

Definition punct_or_slash (c : N) : option kind := if c =? 47 then Some KSlash else punct_kind c.

Definition kind_of (a : item) : kind :=
  match a with
  | IKw k => kw_kind k
  | IPunct c => match punct_or_slash c with Some k => k | None => KError end
  | IId _ => KId
  | IStr _ => KStr
  | IPredNum _ | IPredT => KPredicate
  | IAction _ => KAction
  | IAssert _ => KAssertion
  | IMarker _ => KNodeMarker
  | IRename _ => KNodeRename
  | ICreate _ _ => KNodeCreation
  | IWs _ => KWhitespace
  | ILine _ => KLineComment
  | IDoc _ => KDocComment
  | IBlock _ => KBlockComment
  end.

Definition is_trivia (a : item) : bool :=
  match a with IWs _ | ILine _ | IDoc _ | IBlock _ => true | _ => false end.

Definition nonempty (s : text) : bool := match s with [] => false | _ => true end.
Definition is_number (ds : text) : bool := nonempty ds && forallb is_digit ds.
Definition is_kw (w : text) : bool := match kw_or_id w with KId => false | _ => true end.

Definition wf_schar (x : schar) : bool :=
  match x with
  | SPlain c => negb (c =? 39) && negb (c =? 10) && negb (c =? 92)
  | SEsc c => (c =? 39) || (c =? 92)
  end.

(* no `*/` inside *)
Fixpoint no_close (b : text) : bool :=
  match b with
  | [] => true
  | c :: r => match r with
              | [] => true
              | d :: _ => negb ((c =? 42) && (d =? 47)) && no_close r
              end
  end.

Definition wf (a : item) : bool :=
  match a with
  | IKw _ => true
  | IPunct c => match punct_or_slash c with Some _ => true | None => false end
  | IId w => is_ident w && negb (is_kw w)
  | IStr body => forallb wf_schar body
  | IPredNum ds | IAction ds | IAssert ds | IMarker ds => is_number ds
  | IPredT => true
  | IRename w => opt_ident_ok w
  | ICreate ds w => forallb is_digit ds && opt_ident_ok w
  | IWs s => nonempty s && forallb is_ws s
  | ILine b => forallb not_nl b && hd_not (fun c => c =? 47) b
  | IDoc b => forallb not_nl b
  | IBlock b => no_close b
  end.

Definition has_nl (r : text) : bool := existsb (fun c => c =? 10) r.

Definition slash_ok (rest : text) : bool :=
  match rest with
  | [] => true
  | d :: r1 => negb (d =? 42) && negb ((d =? 47) && has_nl r1)
  end.

Definition nofuse (a : item) (rest : text) : bool :=
  match a with
  | IKw _ | IId _ => hd_not is_idc rest
  | IPunct c => if c =? 47 then slash_ok rest else true
  | IStr _ | IPredT | ILine _ | IDoc _ | IBlock _ => true
  | IPredNum _ | IAction _ | IAssert _ | IMarker _ => hd_not is_digit rest
  | IRename w => name_nofuse w rest
  | ICreate _ w => name_nofuse w rest
  | IWs _ => hd_not is_ws rest
  end.

Definition render_all (items : list item) : text := concat (map render items).

Fixpoint layout_ok (items : list item) : bool :=
  match items with
  | [] => true
  | a :: post => wf a && nofuse a (render_all post) && layout_ok post
  end.

Definition chunk_of (a : item) : chunk := mkchunk (LOk (kind_of a)) (render a).

Fixpoint expected (pos : nat) (items : list item) : list tok :=
  match items with
  | [] => []
  | a :: post => (kind_of a, pos, (blen (render a) + pos)%nat) :: expected (blen (render a) + pos)%nat post
  end.

(* `lay0 tok1 lay1 tok2 lay2 …`: a layout is a list of trivia items (possibly empty) *)
Fixpoint interleave (lay0 : list item) (toks : list (item * list item)) : list item :=
  match toks with
  | [] => lay0
  | (t, lay) :: more => lay0 ++ t :: interleave lay more
  end.

(* a condition on a sequence of tokens and trivia, not on a grammar *)
Definition grammar_ok (lay0 : list item) (toks : list (item * list item)) : bool :=
  forallb is_trivia lay0
  && forallb (fun p => negb (is_trivia (fst p)) && forallb is_trivia (snd p)) toks
  && layout_ok (interleave lay0 toks).

Definition first_chunk (t : text) : option chunk := match chunks t with [] => None | ch :: _ => Some ch end.

Lemma is_ws_range : forall c, is_ws c = true -> c <= 32.
Proof.
  intros c H. unfold is_ws in H.
  repeat (apply orb_true_iff in H; destruct H as [H|H]); apply N.eqb_eq in H; lia.
Qed.

Lemma is_alpha_range : forall c, is_alpha c = true -> 65 <= c.
Proof.
  intros c H. unfold is_alpha in H.
  apply orb_true_iff in H. destruct H as [H|H]; apply andb_true_iff in H as [H _]; apply N.leb_le in H; lia.
Qed.

Lemma is_digit_range : forall c, is_digit c = true -> 48 <= c <= 57.
Proof. intros c H. apply andb_true_iff in H as [H1 H2]. apply N.leb_le in H1, H2. lia. Qed.

Lemma is_alpha_idc : forall c, is_alpha c = true -> is_idc c = true.
Proof. intros c H. unfold is_idc. rewrite H. reflexivity. Qed.

Lemma classify_ws : forall c, is_ws c = true -> classify c = CWs.
Proof. intros c H. unfold classify. rewrite H. reflexivity. Qed.

Lemma classify_alpha : forall c, is_alpha c = true -> classify c = CAlpha.
Proof.
  intros c H. unfold classify. rewrite H.
  destruct (is_ws c) eqn:E; [|reflexivity]. apply is_ws_range in E. apply is_alpha_range in H. lia.
Qed.

Lemma classify_digit : forall c, is_digit c = true -> classify c = CDigit.
Proof.
  intros c H. unfold classify. rewrite H. apply is_digit_range in H.
  destruct (is_ws c) eqn:E; [apply is_ws_range in E; lia|].
  destruct (is_alpha c) eqn:E'; [apply is_alpha_range in E'; lia|reflexivity].
Qed.

Lemma classify_punct : forall c k, punct_kind c = Some k -> classify c = CPunct k /\ kind_is_str k = false.
Proof.
  intros c k H. unfold punct_kind in H.
  repeat match type of H with
  | (if (?a =? ?b) then _ else _) = _ =>
      destruct (N.eqb_spec a b) as [->|_]; [injection H as <-; split; reflexivity|]
  end.
  discriminate.
Qed.

Lemma skipn_app_2 : forall (a b : text) n, skipn (length a + n) (a ++ b) = skipn n b.
Proof. induction a as [|c a IH]; intros b n; [reflexivity|apply IH]. Qed.

Lemma count_while_app : forall p a b,
  forallb p a = true -> count_while p (a ++ b) = (length a + count_while p b)%nat.
Proof.
  induction a as [|c a IH]; intros b Ha; [reflexivity|].
  simpl in Ha. apply andb_true_iff in Ha as [Hc Ha]. simpl. rewrite Hc, (IH b Ha). reflexivity.
Qed.

Lemma hd_not_count : forall p r, hd_not p r = (count_while p r =? 0)%nat.
Proof. intros p [|d r]; [reflexivity|]. simpl. destruct (p d); reflexivity. Qed.

Lemma count_while_stop : forall p b, hd_not p b = true -> count_while p b = 0%nat.
Proof. intros p b H. rewrite hd_not_count in H. apply Nat.eqb_eq. exact H. Qed.

(* how many characters of `rest` the scanner takes behind the name `w` *)
Definition name_ext (w rest : text) : nat :=
  match w with [] => opt_ident rest | _ => count_while is_idc rest end.

Lemma opt_ident_app : forall w rest,
  opt_ident_ok w = true -> opt_ident (w ++ rest) = (length w + name_ext w rest)%nat.
Proof.
  intros [|c a] rest Hw; [reflexivity|]. simpl in Hw. apply andb_true_iff in Hw as [Hc Ha].
  unfold opt_ident. simpl app. cbv iota. rewrite Hc. apply (count_while_app is_idc (c :: a)).
  simpl. rewrite (is_alpha_idc c Hc). exact Ha.
Qed.

Lemma name_nofuse_ext : forall w rest, name_nofuse w rest = (name_ext w rest =? 0)%nat.
Proof.
  intros [|c a] rest; [|apply hd_not_count]. destruct rest as [|d r]; [reflexivity|].
  simpl. destruct (is_alpha d) eqn:E; [rewrite (is_alpha_idc d E)|]; reflexivity.
Qed.

Definition ext (a : item) (rest : text) : nat :=
  match a with
  | IKw _ | IId _ => count_while is_idc rest
  | IPunct c => if c =? 47 then snd (next_token 47 rest) else 0%nat
  | IPredNum _ | IAction _ | IAssert _ | IMarker _ => count_while is_digit rest
  | IRename w | ICreate _ w => name_ext w rest
  | IWs _ => count_while is_ws rest
  | IStr _ | IPredT | ILine _ | IDoc _ | IBlock _ => 0%nat
  end.

Lemma next_token_word : forall c l rest,
  is_alpha c = true -> forallb is_idc l = true ->
  next_token c (l ++ rest)
  = (LOk (kw_or_id (c :: l ++ firstn (count_while is_idc rest) rest)), (length l + count_while is_idc rest)%nat).
Proof.
  intros c l rest Hc Hl. unfold next_token. cbv zeta.
  rewrite (classify_alpha c Hc), (count_while_app is_idc l rest Hl), firstn_app_2. reflexivity.
Qed.

Lemma not_nl_skip : forall r,
  if has_nl r then skipn (count_while not_nl r) r <> [] else skipn (count_while not_nl r) r = [].
Proof.
  induction r as [|c r IH]; [reflexivity|]. simpl. unfold not_nl at 1 3.
  destruct (c =? 10); simpl; [discriminate|exact IH].
Qed.

(* `/` alone: followed by `*` it opens a block comment, followed by `/` a line comment if a newline comes *)
Lemma next_token_slash : forall rest,
  if slash_ok rest then next_token 47 rest = (LOk KSlash, 0%nat) else snd (next_token 47 rest) <> 0%nat.
Proof.
  intros [|d r1]; [reflexivity|]. unfold next_token, slash_ok. change (classify 47) with CSlash. cbv iota.
  destruct (d =? 42); [destruct (scan_block r1); discriminate|].
  destruct (d =? 47); [|reflexivity]. simpl. pose proof (not_nl_skip r1) as H.
  destruct (has_nl r1), (skipn (count_while not_nl r1) r1); try discriminate; congruence.
Qed.

Lemma next_token_line : forall b rest,
  forallb not_nl b = true ->
  next_token 47 ((47 :: b ++ [10]) ++ rest)
  = (LOk (match b with e :: _ => if e =? 47 then KDocComment else KLineComment | [] => KLineComment end),
     length (47 :: b ++ [10])).
Proof.
  intros b rest Hb. unfold next_token. change (classify 47) with CSlash.
  simpl app. cbv iota. change (47 =? 42) with false. change (47 =? 47) with true. cbv iota.
  rewrite <- app_assoc, (count_while_app not_nl b _ Hb). simpl. rewrite skipn_app_2, Nat.add_0_r, last_length.
  destruct b; reflexivity.
Qed.

Lemma str_body_scan : forall body rest off,
  forallb wf_schar body = true ->
  scan_str ((str_body body ++ [39]) ++ rest) = (length (str_body body ++ [39]), true)
  /\ check_str off (str_body body ++ [39]) = [].
Proof.
  induction body as [|x body IH]; intros rest off H; [split; reflexivity|].
  simpl in H. apply andb_true_iff in H as [Hx Hb].
  change (str_body (x :: body)) with (render_schar x ++ str_body body). destruct x as [c|c]; simpl in Hx |- *.
  - destruct (c =? 39); [discriminate Hx|]. destruct (c =? 10); [discriminate Hx|].
    destruct (c =? 92); [discriminate Hx|].
    rewrite (proj1 (IH rest off Hb)). split; [reflexivity|exact (proj2 (IH rest _ Hb))].
  - change (92 =? 39) with false. change (92 =? 10) with false. change (92 =? 92) with true. cbv iota.
    rewrite (proj1 (IH rest off Hb)), Hx. split; [reflexivity|exact (proj2 (IH rest _ Hb))].
Qed.

Lemma scan_block_cons : forall c d r,
  scan_block (c :: d :: r) = if (c =? 42) && (d =? 47) then Some 2%nat else option_map S (scan_block (d :: r)).
Proof. reflexivity. Qed.

Lemma scan_block_body : forall b rest,
  no_close b = true -> scan_block ((b ++ [42; 47]) ++ rest) = Some (length (b ++ [42; 47])).
Proof.
  induction b as [|c b IH]; intros rest H; [reflexivity|]. destruct b as [|d b'].
  - simpl. change (42 =? 47) with false. rewrite andb_false_r. reflexivity.
  - simpl in H. apply andb_true_iff in H as [Hcd Hb]. apply negb_true_iff in Hcd.
    simpl app. rewrite scan_block_cons, Hcd. simpl app in IH. rewrite (IH rest Hb). reflexivity.
Qed.

Lemma num_tok_app : forall k ds rest,
  is_number ds = true -> num_tok k (ds ++ rest) = (LOk k, (length ds + count_while is_digit rest)%nat).
Proof.
  intros k ds rest H. apply andb_true_iff in H as [Hne Hd].
  unfold num_tok. rewrite (count_while_app is_digit ds rest Hd). destruct ds; [discriminate|reflexivity].
Qed.

Lemma chunks_token : forall c l rest res n,
  next_token c (l ++ rest) = (res, (length l + n)%nat) ->
  chunks ((c :: l) ++ rest) = mkchunk res ((c :: l) ++ firstn n rest) :: chunks (skipn n rest).
Proof.
  intros c l rest res n H. simpl app. rewrite chunks_cons, H. simpl.
  rewrite firstn_app_2, skipn_app_2. reflexivity.
Qed.

Definition cuts (a : item) (rest : text) (lexeme : text) (n : nat) : Prop :=
  exists res, chunks (lexeme ++ rest) = mkchunk res (lexeme ++ firstn n rest) :: chunks (skipn n rest)
              /\ (n = 0%nat -> res = LOk (kind_of a)).

Lemma cuts_intro : forall c l a rest res n,
  next_token c (l ++ rest) = (res, (length l + n)%nat) -> (n = 0%nat -> res = LOk (kind_of a)) ->
  cuts a rest (c :: l) n.
Proof. intros c l a rest res n H Hk. exists res. split; [exact (chunks_token c l rest res n H)|exact Hk]. Qed.

Lemma item_token : forall a rest, wf a = true -> cuts a rest (render a) (ext a rest).
Proof.
  intros a rest Hwf. destruct a; simpl in Hwf; simpl ext; simpl render.
  - (* keyword *)
    destruct k; (eapply cuts_intro; [apply next_token_word; reflexivity|]); intros ->; reflexivity.
  - (* punctuation *)
    unfold punct_or_slash in Hwf. destruct (N.eqb_spec c 47) as [->|Hc].
    + apply (cuts_intro 47 [] _ _ (fst (next_token 47 rest))); [apply surjective_pairing|].
      intro H. pose proof (next_token_slash rest) as Hs. destruct (slash_ok rest); [rewrite Hs; reflexivity|contradiction].
    + destruct (punct_kind c) as [k|] eqn:Hk; [|discriminate].
      apply (cuts_intro c [] _ _ (LOk k)); unfold next_token, kind_of, punct_or_slash.
      * rewrite (proj1 (classify_punct c k Hk)). reflexivity.
      * apply N.eqb_neq in Hc. rewrite Hc, Hk. reflexivity.
  - (* identifier *)
    apply andb_true_iff in Hwf as [Hid Hkw]. apply negb_true_iff in Hkw.
    destruct w as [|c l]; [discriminate|]. simpl in Hid. apply andb_true_iff in Hid as [Hc Hl].
    eapply cuts_intro; [apply next_token_word; assumption|]. intros ->.
    simpl. rewrite app_nil_r. unfold is_kw in Hkw. destruct (kw_or_id (c :: l)); try discriminate. reflexivity.
  - (* string *)
    eapply (cuts_intro 39 (str_body body ++ [39])); [|reflexivity].
    unfold next_token. change (classify 39) with CQuote.
    rewrite (proj1 (str_body_scan body rest 0%nat Hwf)), Nat.add_0_r. reflexivity.
  - (* ?n *)
    eapply (cuts_intro 63 ds); [|reflexivity].
    apply andb_true_iff in Hwf as [Hne Hd].
    unfold next_token. change (classify 63) with CQuest. rewrite (count_while_app is_digit ds rest Hd).
    destruct ds as [|d ds']; [discriminate|]. simpl in Hd |- *. apply andb_true_iff in Hd as [-> _]. reflexivity.
  - (* ?t *)
    eapply (cuts_intro 63 [116]); reflexivity.
  - (* #n *)
    eapply (cuts_intro 35 ds); [exact (num_tok_app _ ds rest Hwf)|reflexivity].
  - (* !n *)
    eapply (cuts_intro 33 ds); [exact (num_tok_app _ ds rest Hwf)|reflexivity].
  - (* <n *)
    eapply (cuts_intro 60 ds); [exact (num_tok_app _ ds rest Hwf)|reflexivity].
  - (* @name *)
    eapply (cuts_intro 64 w); [|reflexivity].
    exact (f_equal (pair _) (opt_ident_app w rest Hwf)).
  - (* n>name *)
    apply andb_true_iff in Hwf as [Hds Hw]. pose proof (opt_ident_app w rest Hw) as Ho.
    destruct ds as [|d ds'].
    + eapply (cuts_intro 62 w); [exact (f_equal (pair _) Ho)|reflexivity].
    + eapply (cuts_intro d (ds' ++ 62 :: w)); [|reflexivity].
      simpl in Hds. apply andb_true_iff in Hds as [Hd Hds'].
      unfold next_token. rewrite (classify_digit d Hd), <- app_assoc, (count_while_app is_digit ds' _ Hds').
      simpl. rewrite skipn_app_2, Nat.add_0_r. cbn [skipn]. change (62 =? 62) with true. cbv iota.
      rewrite Ho, app_length. simpl. f_equal. lia.
  - (* whitespace *)
    apply andb_true_iff in Hwf as [Hne Hs].
    destruct s as [|c l]; [discriminate|]. simpl in Hs. apply andb_true_iff in Hs as [Hc Hl].
    eapply (cuts_intro c l); [|reflexivity].
    unfold next_token. rewrite (classify_ws c Hc), (count_while_app is_ws l rest Hl). reflexivity.
  - (* line comment *)
    apply andb_true_iff in Hwf as [Hb Hh].
    eapply (cuts_intro 47 (47 :: b ++ [10])); [|reflexivity].
    rewrite (next_token_line b rest Hb), Nat.add_0_r. destruct b as [|e b']; [reflexivity|].
    simpl in Hh. apply negb_true_iff in Hh. rewrite Hh. reflexivity.
  - (* doc comment *)
    eapply (cuts_intro 47 (47 :: (47 :: b) ++ [10])); [|reflexivity].
    rewrite (next_token_line (47 :: b) rest), Nat.add_0_r; [reflexivity|exact Hwf].
  - (* block comment *)
    eapply (cuts_intro 47 (42 :: b ++ [42; 47])); [|reflexivity].
    unfold next_token. change (classify 47) with CSlash. simpl app. cbv iota. change (42 =? 42) with true. cbv iota.
    rewrite (scan_block_body b rest Hwf), Nat.add_0_r. reflexivity.
Qed.

Lemma nofuse_ext : forall a rest, nofuse a rest = (ext a rest =? 0)%nat.
Proof.
  intros a rest. destruct a; try reflexivity; try apply hd_not_count; try apply name_nofuse_ext.
  simpl. destruct (c =? 47); [|reflexivity]. pose proof (next_token_slash rest) as H.
  destruct (slash_ok rest); [rewrite H; reflexivity|]. symmetry. apply Nat.eqb_neq. exact H.
Qed.

Lemma chunks_item : forall a rest,
  wf a = true -> nofuse a rest = true -> chunks (render a ++ rest) = chunk_of a :: chunks rest.
Proof.
  intros a rest Hwf Hnf. destruct (item_token a rest Hwf) as (res & Hc & Hk).
  rewrite nofuse_ext in Hnf. apply Nat.eqb_eq in Hnf. rewrite Hc, (Hk Hnf), Hnf. simpl.
  rewrite app_nil_r. reflexivity.
Qed.

Lemma item_no_diag : forall a pos,
  wf a = true -> (if kind_is_str (kind_of a) then check_str pos (render a) else []) = [].
Proof.
  intros a pos Hwf. destruct a; try reflexivity.
  - destruct k; reflexivity.
  - unfold kind_of, punct_or_slash. destruct (c =? 47); [reflexivity|].
    destruct (punct_kind c) as [k|] eqn:Hk; [|reflexivity]. rewrite (proj2 (classify_punct c k Hk)). reflexivity.
  - simpl. change (39 =? 92) with false. cbv iota. apply (str_body_scan body [] _ Hwf).
Qed.

Lemma lex_items_at : forall items pos,
  layout_ok items = true -> place pos (chunks (render_all items)) = (expected pos items, []).
Proof.
  induction items as [|a post IH]; intros pos H; [reflexivity|].
  simpl in H. apply andb_true_iff in H as [H Hpost]. apply andb_true_iff in H as [Hwf Hnf].
  change (render_all (a :: post)) with (render a ++ render_all post).
  rewrite (chunks_item a _ Hwf Hnf), place_cons. cbv zeta. rewrite (IH _ Hpost). unfold chunk_diags. simpl.
  rewrite (item_no_diag a pos Hwf). reflexivity.
Qed.

Theorem lex_items : forall items,
  layout_ok items = true -> lex (render_all items) = (expected 0 items, []).
Proof. intros items H. exact (lex_items_at items 0 H). Qed.

(* lex_items at an interleaving: of grammar_ok only the layout_ok conjunct is used; the two trivia
   conjuncts are what interleave_tokens needs *)
Theorem lex_interleaved : forall lay0 toks,
  grammar_ok lay0 toks = true ->
  lex (render_all (interleave lay0 toks)) = (expected 0 (interleave lay0 toks), []).
Proof.
  intros lay0 toks H. unfold grammar_ok in H. apply andb_true_iff in H as [_ H].
  apply lex_items. exact H.
Qed.

Lemma filter_trivia : forall l, forallb is_trivia l = true -> filter (fun a => negb (is_trivia a)) l = [].
Proof.
  induction l as [|x l IH]; intro H; [reflexivity|].
  simpl in H. apply andb_true_iff in H as [Hx Hl]. simpl. rewrite Hx. exact (IH Hl).
Qed.

Lemma interleave_tokens : forall toks lay0,
  forallb is_trivia lay0 = true ->
  forallb (fun p => negb (is_trivia (fst p)) && forallb is_trivia (snd p)) toks = true ->
  filter (fun a => negb (is_trivia a)) (interleave lay0 toks) = map fst toks.
Proof.
  induction toks as [|[t lay] more IH]; intros lay0 H0 H; [exact (filter_trivia lay0 H0)|].
  simpl in H. apply andb_true_iff in H as [Ht Hmore]. apply andb_true_iff in Ht as [Ht Hlay].
  simpl. rewrite filter_app, (filter_trivia lay0 H0). simpl. rewrite Ht, (IH lay Hlay Hmore). reflexivity.
Qed.

Lemma first_chunk_cons : forall c r,
  first_chunk (c :: r) = Some (mkchunk (fst (next_token c r)) (c :: firstn (snd (next_token c r)) r)).
Proof. intros c r. unfold first_chunk. rewrite chunks_cons. reflexivity. Qed.

Lemma ext_nil : forall a, ext a [] = 0%nat.
Proof. intro a. destruct a; try reflexivity; simpl; [destruct (c =? 47)|destruct w|destruct w]; reflexivity. Qed.

Theorem nofuse_necessary : forall a rest,
  wf a = true -> nofuse a rest = false -> first_chunk (render a ++ rest) <> Some (chunk_of a).
Proof.
  intros a rest Hwf Hnf Heq. destruct (item_token a rest Hwf) as (res & Hc & _).
  rewrite nofuse_ext in Hnf. apply Nat.eqb_neq in Hnf.
  unfold first_chunk in Heq. rewrite Hc in Heq. injection Heq as _ Heq.
  rewrite <- (app_nil_r (render a)) in Heq at 2. apply app_inv_head in Heq.
  destruct rest as [|d r]; [exact (Hnf (ext_nil a))|].
  destruct (ext a (d :: r)); [exact (Hnf eq_refl)|discriminate Heq].
Qed.

(* /// d
   token Num='\'\\é';start s;s:e(/* c */'+'e)*1>bin@x ?1 #2<3 / ?t!4;  - separators empty wherever allowed *)
Definition ex_items : list item :=
  [ IDoc [32; 100];
    IKw WToken; IWs [32]; IId [78; 117; 109]; IPunct 61; IStr [SEsc 39; SEsc 92; SPlain 233]; IPunct 59;
    IKw WStart; IWs [32; 10]; IId [115]; IPunct 59;
    IId [115]; IPunct 58; IId [101]; IPunct 40; IBlock [32; 99; 32]; IStr [SPlain 43]; IId [101]; IPunct 41; IPunct 42;
    ICreate [49] [98; 105; 110]; IRename [120]; IWs [32]; IPredNum [49]; IWs [32]; IAction [50]; IMarker [51]; IWs [32];
    IPunct 47; IWs [32]; IPredT; IAssert [52]; IPunct 59; ILine [32; 47; 42] ].

Example ex_layout_ok : layout_ok ex_items = true.
Proof. vm_compute. reflexivity. Qed.

Example ex_readback : lex (render_all ex_items) = (expected 0 ex_items, []).
Proof. exact (lex_items ex_items ex_layout_ok). Qed.

Example ex_readback_computed : map (fun x => fst (fst x)) (fst (lex (render_all ex_items))) = map kind_of ex_items.
Proof. vm_compute. reflexivity. Qed.

(* `token` directly followed by `s` is refused by the side condition - and indeed lexes as the identifier `tokens` *)
Example ex_fuse : layout_ok [IKw WToken; IId [115]] = false
  /\ fst (lex (render_all [IKw WToken; IId [115]])) = [(KId, 0, 6)]%nat.
Proof. split; vm_compute; reflexivity. Qed.
