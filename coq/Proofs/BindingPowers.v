(* C07, the table of binding powers (RecursiveBranches::new + OperatorValidator::run as
   transcribed in Sema.binding_powers): an operator introduced by an earlier branch binds
   strictly tighter than one from a later branch, a branch groups to the left (right
   power = left power + 1) unless its operator tokens are declared `right`, in which case
   it groups to the right (left power = right power + 1) - one swap, however many such
   tokens the branch has.  The Pratt loop that consumes the table is covered by the K3
   correspondence and the precedence oracle, not by a theorem. *)
From Coq Require Import List Arith Bool.
From LV Require Import Sema SetLemmas.
Import ListNotations.

Section BP.
Variable g : grammar.
Variable fi : smap.

Definition right_branch (b : recursion) : bool :=
  match b with
  | RecLeftRight (RCat _ ops) l _ =>
    match operator_of ops l with
    | Some operand => negb (Nat.eqb (length (filter (is_right_tok g) (get fi (rid_of operand)))) 0)
    | None => false
    end
  | _ => false
  end.

Lemma binding_powers_eq bs :
  binding_powers g fi bs =
  map (fun '(i, b) => (rid_of (rec_regex b),
                       if right_branch b then (snd (base_bp (length bs) i), fst (base_bp (length bs) i))
                       else base_bp (length bs) i)) (enumerate 0 bs).
Proof.
  apply map_ext. intros [i [x a|x a|x a c]]; try reflexivity.
  destruct x as [| |? ops| | | | | | | ]; try reflexivity. cbn [right_branch].
  destruct (operator_of ops a) as [operand|]; [|reflexivity]. destruct (Nat.eqb _ 0); reflexivity.
Qed.

Lemma bp_entry bs i id l r :
  nth_error (binding_powers g fi bs) i = Some (id, (l, r)) ->
  exists b, nth_error bs i = Some b
            /\ if right_branch b then (r, l) = base_bp (length bs) i else (l, r) = base_bp (length bs) i.
Proof.
  rewrite binding_powers_eq, nth_error_map, nth_error_enumerate.
  destruct (nth_error bs i) as [b|]; [|discriminate]. cbn [option_map Nat.add].
  intros [= _ H]. exists b. split; [reflexivity|].
  destruct (right_branch b); [injection H as <- <-|]; auto.
Qed.

Theorem bp_earlier_binds_tighter bs i j idi li ri idj lj rj :
  i < j ->
  nth_error (binding_powers g fi bs) i = Some (idi, (li, ri)) ->
  nth_error (binding_powers g fi bs) j = Some (idj, (lj, rj)) ->
  Nat.max lj rj < Nat.min li ri.
Proof.
  intros Hij Hi Hj.
  destruct (bp_entry _ _ _ _ _ Hi) as (bi & _ & Hbi).
  destruct (bp_entry _ _ _ _ _ Hj) as (bj & Ebj & Hbj).
  assert (Hjn : j < length bs) by (apply nth_error_Some; congruence).
  unfold base_bp in *.
  (* whichever way a pair is stored, its smaller component is the left power of its position *)
  assert (Hmin : Nat.min li ri = length bs * 2 - i * 2).
  { destruct (right_branch bi); injection Hbi as -> ->; [apply Nat.min_r|apply Nat.min_l]; apply Nat.le_add_r. }
  assert (Hmax : Nat.max lj rj = length bs * 2 - j * 2 + 1).
  { destruct (right_branch bj); injection Hbj as -> ->; [apply Nat.max_l|apply Nat.max_r]; apply Nat.le_add_r. }
  rewrite Hmin, Hmax. apply (proj1 (Nat.lt_add_lt_sub_r _ _ _)). rewrite <- Nat.add_assoc.
  apply (Nat.lt_le_trans _ (length bs * 2 - j * 2 + j * 2)).
  - apply Nat.add_lt_mono_l. exact (Nat.mul_le_mono_r _ _ 2 Hij).
  - rewrite Nat.sub_add; [apply Nat.le_refl|apply Nat.mul_le_mono_r, Nat.lt_le_incl, Hjn].
Qed.

Theorem bp_associativity bs i id l r :
  nth_error (binding_powers g fi bs) i = Some (id, (l, r)) ->
  exists b, nth_error bs i = Some b
            /\ (right_branch b = false -> r = l + 1)       (* groups to the left *)
            /\ (right_branch b = true -> l = r + 1).       (* groups to the right *)
Proof.
  intros H. destruct (bp_entry _ _ _ _ _ H) as (b & Eb & Hb). exists b. split; [assumption|].
  unfold base_bp in Hb. destruct (right_branch b); injection Hb as -> ->; split; intros; try discriminate; reflexivity.
Qed.

End BP.
