(* The runtime invariant is preserved by every statement of the command language,
   for every program, input, oracle and fuel (instance of ExecRel.exec_keeps_all); the
   execution-level theorem about parse_entry follows. *)
From Coq Require Import List Arith Bool.
From LV Require Import Cst Tree ABuild Runtime Exec Refine ExecRel RuntimeInv.
Import ListNotations.

Section EX.
Variable cx : pctx.
Variable prog : program.
Variable orc : oracles.

Notation P := (RuntimeInv.P cx).
Notation RInv := (RuntimeInv.RInv cx).

(* what the alternatives of an ordered choice guarantee (the newest snapshot is released at the end) *)
Definition PA (sv : saved) (rest : list tmark) (st1 st' : pstate) : Prop :=
  snaps st' = rest
  /\ (gh st1 = None -> gh st' = None)
  /\ (RInv st1 -> saved_ok cx sv -> gh st' <> None -> RInv st').

Lemma PA_pre sv rest a b c : P a b -> PA sv rest b c -> PA sv rest a c.
Proof.
  intros (H1 & H2 & H3) (H4 & H5 & H6). split; [assumption|]. split; [auto|].
  intros Ha Hs Hc. exact (H6 (H3 Ha (defined_before _ _ H5 Hc)) Hs Hc).
Qed.

Lemma PA_post sv rest a b c : PA sv rest a b -> P b c -> PA sv rest a c.
Proof.
  intros (H4 & H5 & H6) (H1 & H2 & H3). split; [congruence|]. split; [auto|].
  intros Ha Hs Hc. exact (H3 (H6 Ha Hs (defined_before _ _ H1 Hc)) Hc).
Qed.

(* [PA] for the state in which the newest snapshot is the one taken for [sv] *)
Definition PAs (sv : saved) (st1 st' : pstate) : Prop :=
  forall rest, snaps st1 = sv_tm sv :: rest -> PA sv rest st1 st'.

Lemma PAs_enter st sv st0 st' : p_get_state st = (sv, st0) -> PAs sv st0 st' -> P st st'.
Proof.
  intros Eg HA. destruct (p_get_state_spec cx _ _ _ Eg) as (Hsn & Hnone & Hsv & Hinv).
  destruct (HA _ Hsn) as (A1 & A2 & A3). split; [auto|]. split; [assumption|].
  intros HR Hne. exact (A3 (Hinv HR (defined_before _ _ A2 Hne)) (Hsv HR) Hne).
Qed.

Lemma PAs_leave sv st1 st3 : P st1 st3 -> PAs sv st1 (p_release st3).
Proof.
  intros HP rest Hsn. apply (PA_pre _ _ _ _ _ HP). rewrite <- (proj1 (proj2 HP)) in Hsn.
  destruct (p_release_spec cx _ _ _ Hsn) as (R1 & R2 & R3). split; [assumption|]. split; auto.
Qed.

Lemma PAs_retry sv st1 st2 st' :
  P st1 st2 -> PAs sv (p_set_state (deletable prog) st2 sv) st' -> PAs sv st1 st'.
Proof.
  intros HP HA rest Hsn. apply (PA_pre _ _ _ _ _ HP). rewrite <- (proj1 (proj2 HP)) in Hsn.
  destruct (p_set_state_spec cx (deletable prog) st2 sv rest Hsn) as (S1 & S2 & S3).
  destruct (HA rest) as (A1 & A2 & A3); [congruence|]. split; [assumption|]. split; [auto|].
  intros HR Hs Hne. exact (A3 (S3 HR Hs (defined_before _ _ A2 Hne)) Hs Hne).
Qed.

Theorem exec_P : forall fuel, exec_keeps cx prog orc P fuel.
Proof.
  apply (exec_keeps_all cx prog orc P PAs).
  - apply P_kept.
  - intros st. apply same_core_P. repeat split; reflexivity.
  - exact PAs_enter.
  - exact PAs_leave.
  - exact PAs_retry.
Qed.

End EX.

(* The execution-level theorem: whatever the program, input, oracle and fuel, if
   [parse_entry] returns with the builder ghost still defined, the returned node
   vector is the pre-order layout of a tree whose leaves are exactly the input
   tokens, in order, each with its index. *)
Section PE.
Variable cx : pctx.
Variable prog : program.
Variable orc : oracles.

Notation P := (RuntimeInv.P cx).
Notation RInv := (RuntimeInv.RInv cx).

(* the state after the prologue `let m = self.open(diags);` *)
Lemma p_open_init :
  exists st0, p_open init_state = Ok (0, st0) /\ (diags st0 = [] /\ err_node st0 = None)
    /\ (gh (p_init_skip cx st0) <> None -> RInv (p_init_skip cx st0)).
Proof.
  eexists. split; [reflexivity|]. split; [auto|].
  destruct (step_refines empty_cst [] ghost_empty BOpen _ inv_init eq_refl) as (c2 & sn2 & [= <- <-] & HI2).
  eapply p_init_skip_RInv; [reflexivity|exact HI2|]. repeat split. apply Nat.le_0_l.
Qed.

Theorem parse_entry_tree fuel r root msg st :
  parse_entry cx prog orc fuel r root msg = XOk st ->
  gh st <> None ->
  exists t,
    nodes (cstd st) = flatten t
    /\ decode (nodes (cstd st)) = Some t
    /\ leaves t = combine (toks cx) (seq 0 (length (toks cx))).
Proof.
  unfold parse_entry.
  destruct p_open_init as (st0 & -> & _ & H1).
  destruct (find_rule prog r) as [f|]; [|discriminate].
  set (st1 := p_init_skip cx st0) in *.
  destruct (call_fn cx prog orc fuel f st1) as [[some st2]| | |] eqn:Ec; try discriminate.
  pose proof (proj2 (proj2 (exec_P cx prog orc fuel)) _ _ _ _ Ec) as P12.
  destruct (p_close_error_node st2) as [st3|w] eqn:E3; [|discriminate].
  pose proof (P_trans cx _ _ _ P12 (p_close_error_node_P cx _ _ E3)) as P13. clear P12.
  (* the trailing-input branch *)
  match goal with |- match ?x with _ => _ end = _ -> _ => destruct x as [st7|w] eqn:E7; [|discriminate] end.
  destruct (c_close_root (cstd st7) 0 root) as [c8|w] eqn:E8; [|discriminate].
  intros [= <-]. cbn [gh add_event set_cst cstd].
  intros Hne.
  destruct (gh st7) as [g7|] eqn:G7; [|contradiction].
  destruct (a_close_root (g_abs g7) 0 root) as [t|] eqn:Ea; [|contradiction].
  (* the invariant reaches st7 with all tokens consumed *)
  assert (H7 : tinv cx (cstd st7) (snaps st7) g7 (length (toks cx))).
  { assert (Hreach : forall s, P st1 s -> gh s <> None ->
                       exists g, gh s = Some g /\ tinv cx (cstd s) (snaps s) g (pos s) /\ pos s <= length (toks cx)).
    { intros s Ps Hs. destruct (proj2 (proj2 Ps) (H1 (P_defined_before cx _ _ Ps Hs)) Hs) as (g & G & HI & (T1 & T) & _).
      exists g. split; [exact G|]. split; [exact (conj HI T)|exact T1]. }
    destruct (Nat.eqb_spec (pos st3) (length (toks cx))) as [Heq|Hneq].
    - injection E7 as <-. destruct (Hreach _ P13) as (g & G & T & _); [congruence|].
      rewrite G7 in G. injection G as <-. rewrite <- Heq. exact T.
    - destruct (p_open (p_error st3 (mk_diag cx st3 msg))) as [[et st5]|w] eqn:E5; [|discriminate].
      destruct (drain_toks cx (skipn (pos st5) (toks cx)) (cstd st5) (gh st5)) as [c6 g6] eqn:E6.
      match type of E7 with match ?x with _ => _ end = _ => destruct x as [c7|w] eqn:Ec7; [|discriminate] end.
      injection E7 as <-. cbn [gh add_event set_cst cstd snaps] in *.
      unfold gstep in G7. cbn [gh cstd] in G7.
      destruct g6 as [g6|]; [|discriminate].
      destruct (Hreach st5) as (g5 & G5 & T5 & Hp5).
      { exact (P_trans cx _ _ _ P13 (P_trans cx _ _ _ (p_error_P cx st3 _) (k_open _ _ (P_kept cx) _ _ _ E5))). }
      { intro Hb. rewrite Hb in E6. apply drain_none in E6. discriminate. }
      rewrite G5 in E6.
      destruct (drain_tinv cx _ _ _ _ _ _ _ [] E6 T5) as (g6' & [= <-] & T6); [symmetry; apply app_nil_r|discriminate|].
      rewrite skipn_length, Nat.add_comm, Nat.sub_add in T6 by exact Hp5.
      destruct (tree_op_tinv cx _ _ _ (BClose et kError) g7 _ I T6) as (c7' & Hc7 & T7).
      { destruct (g_step g6 c6 (BClose et kError)); [congruence|discriminate]. }
      cbn [c_step] in Hc7. rewrite Ec7 in Hc7. injection Hc7 as <-. exact T7. }
  destruct H7 as (HI7 & _ & Htok7). rewrite firstn_all in Htok7.
  destruct (close_root_refines _ _ _ _ _ _ HI7 Ea) as (c8' & Hc8 & Hflat).
  rewrite E8 in Hc8. injection Hc8 as <-.
  exists t. split; [assumption|]. split; [rewrite Hflat; apply decode_flatten|].
  rewrite <- tok_cells_flatten, <- Hflat, <- Htok7.
  (* close_root rewrites cell 0, the placeholder of the root frame *)
  unfold c_close_root in E8. destruct (length (nodes (cstd st7)) <=? 0); [discriminate|].
  injection E8 as <-. cbn [nodes].
  pose proof (inv_match _ _ _ HI7) as Hm.
  unfold a_close_root in Ea. destruct g7 as [[[|top [|? ?]] tr lg] sn7]; try discriminate.
  cbn [g_abs] in Hm. rewrite layout_top in Hm. exact (tok_cells_set_hole _ [] _ _ _ Hm).
Qed.

End PE.
