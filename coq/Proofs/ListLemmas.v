(* List surgery lemmas used by the refinement and runtime proofs. *)
From Coq Require Import List Arith Bool.
From LV Require Import Cst.
Import ListNotations.

Lemma firstn_app_exact {A} (l1 l2 : list A) : firstn (length l1) (l1 ++ l2) = l1.
Proof. rewrite firstn_app, Nat.sub_diag, firstn_all. apply app_nil_r. Qed.

Lemma skipn_app_exact {A} (l1 l2 : list A) : skipn (length l1) (l1 ++ l2) = l2.
Proof. rewrite skipn_app, Nat.sub_diag, skipn_all. reflexivity. Qed.

Lemma skipn_S_app_mid {A} (l1 : list A) y l2 : skipn (S (length l1)) (l1 ++ y :: l2) = l2.
Proof. induction l1 as [|x l1 IH]; [reflexivity|exact IH]. Qed.

Lemma set_nth_app_mid {A} (l1 : list A) y x l2 :
  set_nth (length l1) x (l1 ++ y :: l2) = l1 ++ x :: l2.
Proof. unfold set_nth. rewrite firstn_app_exact, skipn_S_app_mid. reflexivity. Qed.

Lemma insert_at_app_mid {A} (l1 : list A) x l2 :
  insert_at (length l1) x (l1 ++ l2) = l1 ++ x :: l2.
Proof. unfold insert_at. rewrite firstn_app_exact, skipn_app_exact. reflexivity. Qed.

Lemma set_nth_length {A} n (x : A) l : n < length l -> length (set_nth n x l) = length l.
Proof.
  intros H. destruct (nth_split l x H) as (l1 & l2 & E & <-).
  rewrite E, set_nth_app_mid, !app_length. reflexivity.
Qed.

Lemma insert_at_length {A} n (x : A) l : n <= length l -> length (insert_at n x l) = S (length l).
Proof.
  intros _. unfold insert_at. rewrite app_length. cbn [length].
  rewrite Nat.add_succ_r, <- app_length, firstn_skipn. reflexivity.
Qed.

Lemma set_nth_get {A} (l : list A) n x : n < length l -> nth_error (set_nth n x l) n = Some x.
Proof.
  intros H. destruct (nth_split l x H) as (l1 & l2 & E & <-).
  rewrite E, set_nth_app_mid, nth_error_app2, Nat.sub_diag; [reflexivity|constructor].
Qed.

Lemma skipn_nth_error {A} (l : list A) : forall p t, nth_error l p = Some t -> skipn p l = t :: skipn (S p) l.
Proof. induction l as [|x l IH]; intros [|p] t H; try discriminate; [injection H as ->; reflexivity|exact (IH p t H)]. Qed.

Lemma skipn_cons_inv {A} (l : list A) : forall p t l', skipn p l = t :: l' -> nth_error l p = Some t /\ skipn (S p) l = l'.
Proof.
  induction l as [|x l IH]; intros [|p] t l' H; try discriminate; [injection H as -> ->; auto|exact (IH p t l' H)].
Qed.

Lemma split_at {A} (l : list A) n : n <= length l -> exists a b, l = a ++ b /\ length a = n.
Proof.
  intros H. exists (firstn n l), (skipn n l). split.
  - symmetry. apply firstn_skipn.
  - apply firstn_length_le, H.
Qed.

Lemma Forall2_length {A B} (R : A -> B -> Prop) l l' : Forall2 R l l' -> length l = length l'.
Proof. induction 1; cbn; congruence. Qed.

Lemma Forall2_flip {A B} (R : A -> B -> Prop) l l' : Forall2 R l l' -> Forall2 (fun b a => R a b) l' l.
Proof. induction 1; constructor; assumption. Qed.

Lemma Forall2_chain {A B C} (R : A -> B -> Prop) (S : B -> C -> Prop) (T : A -> C -> Prop) :
  (forall a b c, R a b -> S b c -> T a c) ->
  forall l1 l2 l3, Forall2 R l1 l2 -> Forall2 S l2 l3 -> Forall2 T l1 l3.
Proof.
  intros HT l1 l2 l3 H. revert l3.
  induction H; intros l3 H3; inversion H3; subst; constructor; eauto.
Qed.

Lemma Forall2_split_r {A B} (R : A -> B -> Prop) l L1 L2 :
  Forall2 R l (L1 ++ L2) ->
  exists l1 l2, l = l1 ++ l2 /\ Forall2 R l1 L1 /\ Forall2 R l2 L2 /\ length l1 = length L1.
Proof.
  intros H. apply Forall2_app_inv_r in H. destruct H as (a & b & Ha & Hb & ->).
  exists a, b. repeat split; try assumption. apply (Forall2_length _ _ _ Ha).
Qed.

Lemma Forall2_set_nth_r {A B} (R : A -> B -> Prop) l L1 y L2 x x' :
  Forall2 R l (L1 ++ y :: L2) -> R x x' -> Forall2 R (set_nth (length L1) x l) (L1 ++ x' :: L2).
Proof.
  intros H Hx. destruct (Forall2_split_r _ _ _ _ H) as (l1 & l2 & -> & H1 & H2 & <-).
  inversion H2; subst. rewrite set_nth_app_mid. apply Forall2_app; [|constructor]; assumption.
Qed.

Lemma Forall2_insert_at_r {A B} (R : A -> B -> Prop) l L1 L2 x x' :
  Forall2 R l (L1 ++ L2) -> R x x' -> Forall2 R (insert_at (length L1) x l) (L1 ++ x' :: L2).
Proof.
  intros H Hx. destruct (Forall2_split_r _ _ _ _ H) as (l1 & l2 & -> & H1 & H2 & <-).
  rewrite insert_at_app_mid. apply Forall2_app; [|constructor]; assumption.
Qed.

Lemma Forall2_set_nth {A B} (R : A -> B -> Prop) l1 y1 l2 l1' y2 l2' x1 x2 :
  Forall2 R (l1 ++ y1 :: l2) (l1' ++ y2 :: l2') -> length l1 = length l1' -> R x1 x2 ->
  Forall2 R (l1 ++ x1 :: l2) (l1' ++ x2 :: l2').
Proof.
  intros H Hl Hx. rewrite <- (set_nth_app_mid l1 y1), Hl. eapply Forall2_set_nth_r; eassumption.
Qed.

Lemma Forall2_insert {A B} (R : A -> B -> Prop) l1 l2 l1' l2' x1 x2 :
  Forall2 R (l1 ++ l2) (l1' ++ l2') -> length l1 = length l1' -> R x1 x2 ->
  Forall2 R (l1 ++ x1 :: l2) (l1' ++ x2 :: l2').
Proof.
  intros H Hl Hx. rewrite <- (insert_at_app_mid l1), Hl. apply Forall2_insert_at_r; assumption.
Qed.

Lemma forallb_all {A} (l : list A) : forallb (fun _ => true) l = true.
Proof. induction l; auto. Qed.

Lemma forallb_flat_map {A B} (p : B -> bool) (f : A -> list B) l :
  (forall x, In x l -> forallb p (f x) = true) -> forallb p (flat_map f l) = true.
Proof.
  intros H. apply forallb_forall. intros y [x [Hx Hy]]%in_flat_map.
  exact (proj1 (forallb_forall _ _) (H x Hx) y Hy).
Qed.
