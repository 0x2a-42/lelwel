(* Invariant of the parser runtime: while the builder ghost stays defined, the
   concrete CstData is the layout of the ghost's reference builder state and the
   token cells are exactly the tokens consumed so far, in order, with their
   indices.  The relation [P] (the invariant is carried over) is kept by the steps the
   Parser methods are made of (ExecRel.kept_of_steps), and by save, restore and release. *)
From Coq Require Import List Arith Lia Bool.
From LV Require Import Cst Tree ABuild Runtime Exec ListLemmas Refine ExecRel.
Import ListNotations.

Section RT.
Variable cx : pctx.

Definition tok_ok (st : pstate) : Prop :=
  pos st <= length (toks cx)
  /\ tcount (cstd st) = pos st
  /\ tok_cells (nodes (cstd st)) = combine (firstn (pos st) (toks cx)) (seq 0 (pos st)).

Definition cur_ok (st : pstate) : Prop := cur st = nth (pos st) (toks cx) (eoi cx).

Definition RInv (st : pstate) : Prop :=
  exists g, gh st = Some g /\ Inv (cstd st) (snaps st) g /\ tok_ok st /\ cur_ok st.

Definition P (st st' : pstate) : Prop :=
  (gh st = None -> gh st' = None)
  /\ snaps st' = snaps st
  /\ (RInv st -> gh st' <> None -> RInv st').

Lemma P_refl st : P st st.
Proof. repeat split; auto. Qed.

Lemma defined_before (x y : option ghost) : (x = None -> y = None) -> y <> None -> x <> None.
Proof. intros H Hy Hx. exact (Hy (H Hx)). Qed.

Lemma P_defined_before a b : P a b -> gh b <> None -> gh a <> None.
Proof. intros (H & _). exact (defined_before _ _ H). Qed.

Lemma P_trans a b c : P a b -> P b c -> P a c.
Proof.
  intros Hab Hbc. pose proof (P_defined_before _ _ Hbc) as Hl. destruct Hab as (H1 & H2 & H3), Hbc as (H4 & H5 & H6).
  repeat split; [auto|congruence|]. intros Ha Hc. exact (H6 (H3 Ha (Hl Hc)) Hc).
Qed.

Definition same_core (st st' : pstate) : Prop :=
  cstd st' = cstd st /\ pos st' = pos st /\ cur st' = cur st /\ gh st' = gh st /\ snaps st' = snaps st.

Lemma same_core_P st st' : same_core st st' -> P st st'.
Proof.
  intros (Hc & Hp & Hu & Hg & Hs). repeat split.
  - congruence.
  - assumption.
  - intros (g & G1 & G2 & (T1 & T2 & T3) & G4) _. exists g. unfold tok_ok, cur_ok.
    rewrite Hc, Hp, Hu, Hg, Hs. unfold cur_ok in G4. auto 10.
Qed.

Lemma p_error_P st d : P st (p_error st d).
Proof. apply same_core_P. unfold p_error. destruct (active_error st); repeat split; reflexivity. Qed.

Lemma gstep_inv st g o g' :
  gh st = Some g -> Inv (cstd st) (snaps st) g -> g_step g (cstd st) o = Some g' ->
  exists c' sn', c_step (cstd st) (snaps st) o = Ok (c', sn') /\ Inv c' sn' g'.
Proof. intros _ HI Hg. eapply step_refines; eassumption. Qed.

(* the tree refines the ghost and its token cells are the first [p] tokens of the input *)
Definition tinv (c : cst) (sn : list tmark) (g : ghost) (p : nat) : Prop :=
  Inv c sn g /\ tcount c = p /\ tok_cells (nodes c) = combine (firstn p (toks cx)) (seq 0 p).

Lemma cells_S (l : list tok) : forall p s t,
  nth_error l p = Some t -> combine (firstn (S p) l) (seq s (S p)) = combine (firstn p l) (seq s p) ++ [(t, s + p)].
Proof.
  induction l as [|x l IH]; intros [|p] s t H; try discriminate; cbn in H |- *.
  - injection H as ->. rewrite Nat.add_0_r. reflexivity.
  - rewrite <- Nat.add_succ_comm. f_equal. exact (IH p (S s) t H).
Qed.

Lemma advance_tinv c sn g t sk g' p :
  tinv c sn g p -> g_step g c (BAdvance t sk) = Some g' -> nth_error (toks cx) p = Some t ->
  tinv (c_advance c t sk) sn g' (S p).
Proof.
  intros (HI & Ht & Hc) Eg En. destruct (step_refines _ _ _ _ _ HI Eg) as (c2 & sn2 & [= <- <-] & HI2).
  split; [exact HI2|]. cbn [c_advance nodes tcount]. rewrite tok_cells_app, Hc, Ht, (cells_S _ _ 0 _ En). auto.
Qed.

Lemma drain_tinv : forall l c g0 c' g' sn p rest,
  drain_toks cx l c (Some g0) = (c', g') -> tinv c sn g0 p -> skipn p (toks cx) = l ++ rest -> g' <> None ->
  exists g1, g' = Some g1 /\ tinv c' sn g1 (p + length l).
Proof.
  induction l as [|t l IH]; intros c g0 c' g' sn p rest H T Hl Hne; cbn [drain_toks] in H.
  - injection H as <- <-. rewrite Nat.add_0_r. eauto.
  - destruct (skipn_cons_inv _ _ _ _ Hl) as (En & Hl').
    destruct (g_step g0 c (BAdvance t (is_skipped cx t))) as [g1|] eqn:Eg; [|apply drain_none in H; contradiction].
    cbn [length]. rewrite <- Nat.add_succ_comm. exact (IH _ _ _ _ _ _ _ H (advance_tinv _ _ _ _ _ _ _ T Eg En) Hl' Hne).
Qed.

(* the placeholder of an open frame is a rule cell *)
Lemma tok_cells_set_hole l L1 L2 k e :
  matches l (L1 ++ None :: L2) -> tok_cells (set_nth (length L1) (NRule k e) l) = tok_cells l.
Proof.
  intros Hm. destruct (Forall2_split_r _ _ _ _ Hm) as (n1 & n2 & -> & _ & Hm2 & <-).
  inversion Hm2 as [|x y n2' L2' Hx]; subst. destruct Hx as (k0 & e0 & ->). rewrite set_nth_app_mid, !tok_cells_app. reflexivity.
Qed.

Lemma tree_op_cells c sn g o g' c' sn' :
  tree_op o -> Inv c sn g -> g_step g c o = Some g' -> c_step c sn o = Ok (c', sn') ->
  sn' = sn /\ tcount c' = tcount c /\ tok_cells (nodes c') = tok_cells (nodes c).
Proof.
  intros Ho HI Eg Hc. destruct o; try contradiction; cbn [c_step g_step] in Hc, Eg.
  - injection Hc as <- <-. cbn. rewrite tok_cells_app. cbn. rewrite app_nil_r. auto.
  - destruct (a_close (g_abs g) m k) as [a'|] eqn:Ea; [|discriminate].
    destruct (a_close_spec _ _ _ _ Ea) as (top & outer & L1 & L2 & _ & Hl & <- & _).
    pose proof (inv_match _ _ _ HI) as Hm. rewrite Hl in Hm.
    unfold c_close in Hc. destruct (nsl c); [discriminate|]. destruct (length (nodes c) <=? length L1); [discriminate|].
    destruct (n <? length L1); injection Hc as <- <-; cbn [nodes tcount]; eauto using tok_cells_set_hole.
  - unfold c_open_before in Hc. destruct (length (nodes c) <? p); [discriminate|]. injection Hc as <- <-.
    cbn. unfold insert_at. rewrite tok_cells_app. cbn [tok_cells]. rewrite <- tok_cells_app, firstn_skipn. auto.
Qed.

Lemma tree_op_tinv c sn g o g' p :
  tree_op o -> tinv c sn g p -> g_step g c o = Some g' -> exists c', c_step c sn o = Ok (c', sn) /\ tinv c' sn g' p.
Proof.
  intros Ho (HI & Ht & Hc) Eg. destruct (step_refines _ _ _ _ _ HI Eg) as (c' & sn' & Hs & HI').
  destruct (tree_op_cells _ _ _ _ _ _ _ Ho HI Eg Hs) as (-> & Ht' & Hc'). exists c'. split; [exact Hs|].
  split; [exact HI'|]. rewrite Ht', Hc'. auto.
Qed.

Lemma RInv_step st o st' :
  RInv st -> gh st' = gstep st o -> gh st' <> None ->
  (forall g g' c' sn', Inv (cstd st) (snaps st) g -> g_step g (cstd st) o = Some g' ->
     c_step (cstd st) (snaps st) o = Ok (c', sn') -> Inv c' sn' g' ->
     cstd st' = c' /\ snaps st' = sn' /\ tok_ok st' /\ cur_ok st') ->
  RInv st'.
Proof.
  intros (g & G1 & G2 & _) Hg Hne Hk. rewrite Hg in Hne. unfold gstep in Hg, Hne. rewrite G1 in Hg, Hne.
  destruct (g_step g (cstd st) o) as [g'|] eqn:Eg; [|contradiction].
  destruct (step_refines _ _ _ _ _ G2 Eg) as (c' & sn' & Hc & HI).
  destruct (Hk _ _ _ _ G2 Eg Hc HI) as (<- & <- & T & C). exists g'. auto.
Qed.

Lemma tree_op_P st o st' :
  tree_op o -> c_step (cstd st) (snaps st) o = Ok (cstd st', snaps st) ->
  gh st' = gstep st o -> pos st' = pos st -> cur st' = cur st -> snaps st' = snaps st -> P st st'.
Proof.
  intros Ho Hc Hg Hp Hu Hs. split; [|split].
  - intros Hn. rewrite Hg. unfold gstep. rewrite Hn. reflexivity.
  - assumption.
  - intros HR Hne. apply (RInv_step st o st' HR Hg Hne). intros g g' c2 sn2 G2 Eg Hc2 _.
    destruct (tree_op_cells _ _ _ _ _ _ _ Ho G2 Eg Hc2) as (-> & Ht1 & Ht2). rewrite Hc in Hc2. injection Hc2 as <-.
    destruct HR as (_ & _ & _ & (T1 & T2 & T3) & G4).
    unfold tok_ok, cur_ok in *. rewrite Hp, Hu, Ht1, Ht2. auto 6.
Qed.

Lemma p_close_error_node_P st st' : p_close_error_node st = Ok st' -> P st st'.
Proof.
  unfold p_close_error_node. destruct (err_node st) as [m|]; [|intros [= <-]; apply P_refl].
  destruct (c_close (cstd st) m kError) as [c'|w] eqn:Ec; [|discriminate]. intros [= <-].
  apply (tree_op_P st (BClose m kError)); cbn [cstd gh pos cur snaps c_step]; try reflexivity.
  rewrite Ec. reflexivity.
Qed.

Lemma tree_step_P s s' : tree_step s s' -> P s s'.
Proof. intros [o c' Ho Hc]. apply (tree_op_P s o); cbn [cstd gh pos cur snaps set_cst]; auto. Qed.

Lemma open_error_node_P s : P s (open_error_node s).
Proof.
  unfold open_error_node. destruct (err_node s); [apply P_refl|].
  destruct (c_open (cstd s)) as [mk c'] eqn:Eo.
  apply (tree_op_P s BOpen); cbn [cstd gh pos cur snaps c_step]; try reflexivity. rewrite Eo. reflexivity.
Qed.

Lemma skipped_to_RInv s p c g b :
  tinv c (snaps s) g p -> p <= length (toks cx) -> gh (skipped_to cx s p c (Some g) b) <> None ->
  RInv (skipped_to cx s p c (Some g) b).
Proof.
  intros T Hp Hne. destruct (skipped_to_drain cx s p c (Some g) b) as (l & Hpos & Hl & Hd).
  destruct (drain_tinv _ _ _ _ _ _ _ _ Hd T Hl Hne) as (g1 & Hg1 & HI & T1). rewrite <- Hpos in T1.
  exists g1. split; [exact Hg1|]. split; [exact HI|].
  split; [exact (conj (skipped_to_le cx s p c _ b Hp) T1)|apply skipped_to_cur].
Qed.

Lemma advanced_P s b : P s (advanced cx s b).
Proof.
  unfold advanced, gstep. split; [|split].
  - intros ->. destruct (pos s <? length (toks cx)); apply skipped_to_none.
  - reflexivity.
  - intros (g & G1 & G2 & (T1 & T2 & T3) & G4). rewrite G1.
    destruct (Nat.ltb_spec (pos s) (length (toks cx))) as [Hlt|_]; [|intros []; apply skipped_to_none].
    destruct (g_step g (cstd s) (BAdvance (cur s) false)) as [g1|] eqn:Eg; [|intros []; apply skipped_to_none].
    apply skipped_to_RInv; [|exact Hlt]. apply (advance_tinv _ _ _ _ _ _ _ (conj G2 (conj T2 T3)) Eg).
    rewrite G4. apply nth_error_nth', Hlt.
Qed.

(* init_skip establishes the invariant: the current token need not be right before it *)
Lemma p_init_skip_RInv st g :
  gh st = Some g -> Inv (cstd st) (snaps st) g -> tok_ok st -> gh (p_init_skip cx st) <> None -> RInv (p_init_skip cx st).
Proof.
  intros G1 G2 (T1 & T2 & T3). rewrite p_init_skip_eq, G1. exact (skipped_to_RInv st _ _ g _ (conj G2 (conj T2 T3)) T1).
Qed.

Lemma p_init_skip_P st : P st (p_init_skip cx st).
Proof.
  rewrite p_init_skip_eq. split; [|split].
  - intros ->. apply skipped_to_none.
  - reflexivity.
  - rewrite <- p_init_skip_eq. intros (g & G1 & G2 & T & _). exact (p_init_skip_RInv st g G1 G2 T).
Qed.

Lemma P_kept : kept cx P.
Proof.
  apply kept_of_steps.
  - exact P_refl.
  - exact P_trans.
  - intros s b _. apply advanced_P.
  - intros st m. apply p_error_P.
  - exact p_close_error_node_P.
  - exact tree_step_P.
  - intros s _. apply open_error_node_P.
  - intros st e. apply same_core_P. repeat split; reflexivity.
  - intros st b. apply same_core_P. repeat split; reflexivity.
Qed.

Definition saved_ok (sv : saved) : Prop :=
  sv_pos sv <= length (toks cx) /\ tm_tcount (sv_tm sv) = sv_pos sv
  /\ sv_cur sv = nth (sv_pos sv) (toks cx) (eoi cx).

Lemma p_get_state_spec st sv st0 :
  p_get_state st = (sv, st0) ->
  snaps st0 = sv_tm sv :: snaps st
  /\ (gh st = None -> gh st0 = None)
  /\ (RInv st -> saved_ok sv)
  /\ (RInv st -> gh st0 <> None -> RInv st0).
Proof.
  unfold p_get_state. intros [= <- <-]. cbn [snaps sv_tm gh]. split; [reflexivity|]. split; [|split].
  - unfold gstep. intros ->. reflexivity.
  - intros (g & G1 & G2 & (T1 & T2 & T3) & G4). unfold saved_ok, c_mark_truncation. cbn. auto.
  - intros HR Hne. eapply (RInv_step st BSnap); [exact HR|reflexivity|exact Hne|]. intros g g' c2 sn2 _ _ [= <- <-] _.
    destruct HR as (_ & _ & _ & T & C). auto.
Qed.

Lemma matches_count l lay : matches l lay -> length (tok_cells l) = count_tok lay.
Proof.
  induction 1 as [|x y l l' Hxy _ IH]; [reflexivity|].
  destruct y as [z|]; cbn in Hxy.
  - subst x. destruct z; cbn; [assumption|]. f_equal. assumption.
  - destruct Hxy as (k & e & ->). cbn. assumption.
Qed.

Lemma cells_firstn : forall k (l : list tok) p s,
  firstn k (combine (firstn p l) (seq s p)) = combine (firstn (min k p) l) (seq s (min k p)).
Proof.
  induction k as [|k IH]; intros l [|p] s; try reflexivity. destruct l as [|x l]; [reflexivity|].
  cbn [firstn seq combine min]. f_equal. apply IH.
Qed.

Lemma cells_length (l : list tok) p s : p <= length l -> length (combine (firstn p l) (seq s p)) = p.
Proof. intros H. rewrite combine_length, firstn_length, seq_length. lia. Qed.

Lemma p_set_state_spec del st sv rest :
  snaps st = sv_tm sv :: rest ->
  let st' := p_set_state del st sv in
  (gh st = None -> gh st' = None)
  /\ snaps st' = snaps st
  /\ (RInv st -> saved_ok sv -> gh st' <> None -> RInv st').
Proof.
  intros Hsn st'. split; [|split].
  - unfold st', p_set_state, gstep. cbn [gh]. intros ->. reflexivity.
  - reflexivity.
  - intros HR (S1 & S2 & S3) Hne. apply (RInv_step st (BRestore 0) st' HR eq_refl Hne).
    intros g g' c2 sn2 _ _ Hc2 HI2. cbn [c_step] in Hc2. rewrite Hsn in Hc2. injection Hc2 as <- <-.
    destruct HR as (_ & _ & _ & (T1 & T2 & T3) & _).
    split; [reflexivity|]. split; [exact Hsn|]. split; [|exact S3]. split; [exact S1|]. split; [exact S2|].
    (* the token cells of the truncated vector are a prefix of the old ones, of the length the ghost records *)
    pose proof (matches_count _ _ (inv_match _ _ _ HI2)) as Hlen. rewrite <- (inv_tc _ _ _ HI2) in Hlen.
    unfold st'. cbn [p_set_state cstd pos c_truncate nodes tcount] in Hlen |- *.
    rewrite <- (firstn_skipn (tm_nodes (sv_tm sv)) (nodes (cstd st))), tok_cells_app in T3.
    rewrite <- (firstn_app_exact _ (tok_cells (skipn (tm_nodes (sv_tm sv)) (nodes (cstd st))))), T3, Hlen, cells_firstn.
    apply (f_equal (@length _)) in T3. rewrite app_length, cells_length, Hlen in T3 by exact T1.
    replace (min (tm_tcount (sv_tm sv)) (pos st)) with (sv_pos sv) by lia. reflexivity.
Qed.

Lemma p_release_spec st x rest :
  snaps st = x :: rest ->
  snaps (p_release st) = rest
  /\ (gh st = None -> gh (p_release st) = None)
  /\ (RInv st -> gh (p_release st) <> None -> RInv (p_release st)).
Proof.
  intros Hsn. unfold p_release at 1 2. cbn [snaps gh]. rewrite Hsn. split; [reflexivity|]. split.
  - unfold gstep. intros ->. reflexivity.
  - intros HR Hne. eapply (RInv_step st BRelease); [exact HR|reflexivity|exact Hne|]. intros g g' c2 sn2 _ _ [= <- <-] _.
    destruct HR as (_ & _ & _ & T & C). auto.
Qed.

End RT.
