(* C19 - the tool only writes what it promises.  Proof over the whole domain of
   the driver model (Cli.v): every combination of flags, file states and verdicts. *)
From Coq Require Import List Bool Arith.
From LV Require Import Cli CliProofs.

Theorem C19_every_configuration : forall f w v, row_ok (f, w, v) = true.
Proof. exact cli_ok_every_flags. Qed.

Theorem C19_table_complete : forall f w v, f_verbose f <= 2 -> In (f, w, v) all_rows.
Proof. exact all_rows_complete. Qed.

Print Assumptions C19_every_configuration.
Print Assumptions C19_table_complete.
