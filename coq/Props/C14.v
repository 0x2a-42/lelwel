(* C14 - recovery sets are the dominator-follow sets the documentation defines.
   For every grammar, every first/follow map, every iteration order of the node set and enough
   fuel: if the transcription of RecoverySetGenerator::run returns (recovery, dominators, graph) and
   three boolean certificates hold for that result (every listed node has a predecessor and all
   predecessors are listed; the dominator map satisfies the fixpoint inclusions; node ids are
   listed once - all evaluated on every grammar of the K2 correspondence), then
   (1) x is in the computed dominator set of n iff x lies on every path from the start node to n
       in the predecessor graph, and
   (2) a token is in the recovery set of a repetition/option n iff it is in the follow set of some
       dominator of n and can neither start nor follow the body of n.
   Further theorems, each with its comment below: (1) again without the fixpoint certificate, from
   facts about the graph only; the property's second clause (what may follow the start body is in
   every recovery set unless it can start or follow the loop body); and the loop the back end emits
   for a repetition or option, which is left whenever the current token cannot start the body and
   is in the follow or recovery set (the same two statements as in Props/C03.v). *)
From Coq Require Import List Arith.
From LV Require Import Sema Dominators RecoverySpec Cst Tree ABuild Runtime Exec Compile CompileLoop.
Import ListNotations.

Theorem C14_dominators_exact :
  forall pg start nns fuel d,
  graph_ok pg start nns = true ->
  dom_iter fuel pg nns (d_init start nns) = Some d ->
  dom_fixed pg start d = true ->
  forall n x, In n (nadd start nns) -> In x (nadd start nns) ->
    (In x (dget d n) <-> dominates pg start x n).
Proof. exact dominators_exact. Qed.

(* the fixpoint certificate is itself a theorem: with a graph in which every listed node has a
   predecessor and all predecessors are listed, nodes listed once, and the start node not among
   them (it cannot be referenced, E009), whatever the elimination loop returns is exact *)
Theorem C14_dominators_exact_without_certificate :
  forall pg start nns fuel d,
  graph_ok pg start nns = true -> NoDup nns -> ~ In start nns ->
  (forall k, In k (map fst pg) -> In k nns) ->
  dom_iter fuel pg nns (d_init start nns) = Some d ->
  forall n x, In n (nadd start nns) -> In x (nadd start nns) ->
    (In x (dget d n) <-> dominates pg start x n).
Proof. exact dominators_exact_any. Qed.

Theorem C14_recovery_sets_are_dominator_follow_sets :
  forall g fi fo used fuel order rc d pg sb,
  body_of g (g_start g) = Some sb ->
  calc_recovery g fi fo used fuel order = Some (rc, d, pg) ->
  let start := rid_of sb in
  let nns := order (map fst pg) in
  graph_ok pg start nns = true -> dom_fixed pg start d = true -> nodup_b nns = true ->
  (forall n x, In n (nadd start nns) -> In x (nadd start nns) -> (In x (dget d n) <-> dominates pg start x n))
  /\ (forall n op, In n nns -> loop_body g n = Some op ->
        forall s, mem s (get rc n) = true <->
          (exists dn, In dn (dget d n) /\ mem s (get fo dn) = true)
          /\ mem s (get fi (rid_of op)) = false /\ mem s (get fo (rid_of op)) = false).
Proof. exact calc_recovery_spec. Qed.

(* second clause: whatever may follow the start body - the end-of-input marker and the part end markers - is
   in the recovery set of every repetition/option unless it can start or follow the loop body, so no loop is
   left without an arm for the end of input *)
Theorem C14_end_of_input_is_recovered_or_followed :
  forall g fi fo used fuel order rc d pg sb,
  body_of g (g_start g) = Some sb ->
  calc_recovery g fi fo used fuel order = Some (rc, d, pg) ->
  let start := rid_of sb in
  let nns := order (map fst pg) in
  graph_ok pg start nns = true -> dom_fixed pg start d = true -> nodup_b nns = true ->
  forall n op, In n nns -> loop_body g n = Some op ->
  forall s, mem s (get fo start) = true ->
    mem s (get rc n) = true \/ mem s (get fi (rid_of op)) = true \/ mem s (get fo (rid_of op)) = true.
Proof. exact end_of_input_recovered. Qed.

(* The loop the back end emits for a repetition or option (Compile.c_recover; the KB correspondence
   ties it to src/backend/rust.rs output_recovering_operation) is left - without moving the cursor
   or touching the tree, with at most one diagnostic - whenever the current token cannot start the
   body and lies in the follow set or the recovery set of the construct.  With
   C14_end_of_input_is_recovered_or_followed this is the property's last sentence: every repetition
   and option is left when the end of input is reached.  For every program context, oracle,
   environment, state, body and fuel. *)
Theorem C14_compiled_loop_is_left_at_follow_and_recovery_tokens :
  forall cx prog orc sm rec_of id op body il ic e st fuel,
    tok_in (cur st) (pats (s_first sm) (rid_of op)) = false ->
    tok_in (cur st) (pats (s_follow sm) id) = true \/ tok_in (cur st) (pats (s_recovery sm) id) = true ->
    exists o e' st',
      exec cx prog orc (10 + fuel) rec_of (c_recover sm id op body il ic) e st = XOk (o, e', st')
      /\ pos st' = pos st /\ cstd st' = cstd st /\ cur st' = cur st /\ (o = ONormal \/ o = ORetNone).
Proof. exact recover_loop_exits. Qed.

Theorem C14_star_plus_option_compile_to_that_loop :
  forall g sm ci cxr id op,
    c_regex g sm ci cxr (RStar id op) = [c_recover sm id op (c_regex g sm ci cxr op) true (inch sm id)]
    /\ c_regex g sm ci cxr (RPlus id op)
       = c_regex g sm ci cxr op ++ [c_recover sm id op (c_regex g sm ci cxr op) true (inch sm id)]
    /\ c_regex g sm ci cxr (ROpt id op) = [c_recover sm id op (c_regex g sm ci cxr op) false (inch sm id)].
Proof. intros. exact (conj (c_regex_star _ _ _ _ _ _) (conj (c_regex_plus _ _ _ _ _ _) (c_regex_opt _ _ _ _ _ _))). Qed.

Print Assumptions C14_dominators_exact.
Print Assumptions C14_recovery_sets_are_dominator_follow_sets.
Print Assumptions C14_dominators_exact_without_certificate.
Print Assumptions C14_end_of_input_is_recovered_or_followed.
Print Assumptions C14_compiled_loop_is_left_at_follow_and_recovery_tokens.
Print Assumptions C14_star_plus_option_compile_to_that_loop.
