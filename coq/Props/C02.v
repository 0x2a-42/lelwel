(* C02 - every returned syntax tree is structurally well formed.
   Builder level (unbounded over histories of open / close / advance / mark /
   insert-before-mark / truncate): every history whose operations are valid for
   the reference tree model (ABuild.v) runs on the concrete CstData model without
   panic and keeps the node vector equal to the layout of the reference state;
   closing the root yields exactly the pre-order layout [flatten t] of the
   reference tree, which [decode] reads back.  This file holds statement pins,
   [exact] and Print Assumptions only. *)
From Coq Require Import List.
From LV Require Import Cst Tree ABuild Runtime Exec Refine ExecInv ChildrenWalk.
Import ListNotations.

Theorem C02_step_refines : forall c sn g o g',
  Inv c sn g -> g_step g c o = Some g' ->
  exists c' sn', c_step c sn o = Ok (c', sn') /\ Inv c' sn' g'.
Proof. exact step_refines. Qed.

Theorem C02_history_refines : forall h c sn g r,
  Inv c sn g ->
  run_history h c sn (Some g) = r ->
  match r with
  | Ok (c', sn', Some g') => Inv c' sn' g'
  | Ok (_, _, None) => True
  | Panic _ => exists pre o post c1 sn1 g1,
      h = pre ++ o :: post /\ run_history pre c sn (Some g) = Ok (c1, sn1, Some g1) /\ g_step g1 c1 o = None
  end.
Proof. exact history_refines. Qed.

Theorem C02_init : Inv empty_cst [] ghost_empty.
Proof. exact inv_init. Qed.

Theorem C02_close_root : forall c sn g m k t,
  Inv c sn g -> a_close_root (g_abs g) m k = Some t ->
  exists c', c_close_root c m k = Ok c' /\ nodes c' = flatten t.
Proof. exact close_root_refines. Qed.

Theorem C02_decode_flatten : forall t, decode (flatten t) = Some t.
Proof. exact decode_flatten. Qed.

(* Execution level: every statement of the command language preserves the runtime invariant
   (the concrete CstData is the layout of the reference builder state) as long as the ghost is
   defined; the returned vector then decodes to a tree (all programs, inputs, oracles, fuels). *)
Theorem C02_exec_well_formed : forall cx prog orc fuel r root msg st,
  parse_entry cx prog orc fuel r root msg = XOk st ->
  gh st <> None ->
  exists t, nodes (cstd st) = flatten t /\ decode (nodes (cstd st)) = Some t.
Proof.
  intros cx prog orc fuel r root msg st H Hg.
  destruct (parse_entry_tree cx prog orc fuel r root msg st H Hg) as (t & H1 & H2 & _).
  exists t. split; assumption.
Qed.

(* second clause: the reference passed to create_node is the node that was just closed, and the cell it
   names carries the kind it was closed with (SClose, SCreate and the error paths of the command language
   log [ECreate k ref] with exactly the result of this call) *)
Theorem C02_create_node_truthful : forall st m k ref st',
  p_close st m k = Ok (ref, st') ->
  ref = m /\ exists off, nth_error (nodes (cstd st')) ref = Some (NRule k off).
Proof. exact p_close_truthful. Qed.

Print Assumptions C02_exec_well_formed.
Print Assumptions C02_step_refines.
Print Assumptions C02_history_refines.
Print Assumptions C02_init.
Print Assumptions C02_close_root.
Print Assumptions C02_decode_flatten.
Print Assumptions C02_create_node_truthful.
