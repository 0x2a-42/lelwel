(* C15 - output is reproducible and independent of declaration order: two clauses only.
   First clause (first theorem): the iteration order of the hash set of nodes in RecoverySetGenerator::run does not influence the
   dominator sets it computes (and the recovery sets are a function of those, the follow sets and the
   first sets): for any two orders that list the same nodes, with the graph and fixpoint
   certificates of C14, membership in the computed sets coincides.
   Second clause (second and third theorem): the first sets, and the follow and predict sets
   (tokens), do not depend on the order of the rule declarations.
   Byte-identical output across processes and the behaviour of the generated parser under permuted
   declarations are observed on the real binary (see DESIGN.md), not theorems. *)
From Coq Require Import List Arith.
From LV Require Import Sema Dominators FirstSpec FirstCert FirstOrder.

Theorem C15_dominators_independent_of_iteration_order :
  forall pg start nns1 nns2 fuel1 fuel2 d1 d2,
  (forall k, In k nns1 <-> In k nns2) ->
  graph_ok pg start nns1 = true -> graph_ok pg start nns2 = true ->
  dom_iter fuel1 pg nns1 (d_init start nns1) = Some d1 ->
  dom_iter fuel2 pg nns2 (d_init start nns2) = Some d2 ->
  dom_fixed pg start d1 = true -> dom_fixed pg start d2 = true ->
  forall n x, In n (nadd start nns1) -> In x (nadd start nns1) ->
    (In x (dget d1 n) <-> In x (dget d2 n)).
Proof. exact dominators_order_independent. Qed.

(* Reordering the rule declarations does not change the first sets: two grammars that hold the same
   rules at permuted positions ([s] maps old positions to new ones, [t] is its inverse; references are
   renamed accordingly, node ids kept) get the same first set at every node, whatever the fuel.
   Both are the derivation-defined set (C09_first_sets_exact), and derivations do not see positions. *)
Theorem C15_first_sets_independent_of_declaration_order :
  forall g1 g2 s t fuel1 fuel2 m1 m2,
  (forall r, t (s r) = r) -> (forall r, s (t r) = r) ->
  (forall r, body_of g2 (s r) = option_map (rename s) (body_of g1 r)) ->
  wf_ids_b g1 = true -> productive_b g1 = true -> wf_ids_b g2 = true -> productive_b g2 = true ->
  calc_first g1 fuel1 = Some m1 -> calc_first g2 fuel2 = Some m2 ->
  forall x, In x (nodes_of g1) ->
  forall y, mem y (get m1 (rid_of x)) = mem y (get m2 (rid_of x)).
Proof. exact first_sets_order_independent. Qed.

(* ... nor the follow and predict sets (tokens; the empty-word marker in follow sets is ignored as in C09):
   same rules at permuted positions, same start rule, end marker and parts *)
Theorem C15_analysis_sets_independent_of_declaration_order :
  forall g1 g2 s t fuel1 fuel2 fuel3 fuel4 fi1 fi2 fo1 lf1 fo2 lf2,
  (forall r, t (s r) = r) -> (forall r, s (t r) = r) ->
  (forall r, body_of g2 (s r) = option_map (rename s) (body_of g1 r)) ->
  g_start g2 = s (g_start g1) -> g_eof g2 = g_eof g1 ->
  (forall p a, In (p, a) (g_parts g1) <-> In (s p, a) (g_parts g2)) ->
  wf_ids_b g1 = true -> productive_b g1 = true -> wf_ids_b g2 = true -> productive_b g2 = true ->
  calc_first g1 fuel1 = Some fi1 -> calc_first g2 fuel2 = Some fi2 ->
  calc_follow g1 fi1 fuel3 = Some (fo1, lf1) -> calc_follow g2 fi2 fuel4 = Some (fo2, lf2) ->
  forall x, In x (nodes_of g1) ->
    (forall y, mem y (get fi1 (rid_of x)) = mem y (get fi2 (rid_of x)))
    /\ (forall a, mem (T a) (get fo1 (rid_of x)) = mem (T a) (get fo2 (rid_of x)))
    /\ (forall a, mem (T a) (get (calc_predict fi1 fo1) (rid_of x)) = mem (T a) (get (calc_predict fi2 fo2) (rid_of x))).
Proof. exact analysis_sets_order_independent. Qed.

Print Assumptions C15_dominators_independent_of_iteration_order.
Print Assumptions C15_first_sets_independent_of_declaration_order.
Print Assumptions C15_analysis_sets_independent_of_declaration_order.
