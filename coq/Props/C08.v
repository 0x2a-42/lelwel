(* C08 - ordered-choice backtracking leaves no trace.  For every program of the command language,
   every input, oracle and fuel: when an alternative of an ordered choice has run (arbitrarily far,
   including nested choices and rule calls) and is abandoned, the state the parser continues from
   has the position, current token, diagnostics, error node and error flag it had before the
   attempt, the callback log is the old one extended (created nodes are followed by their
   deletions, checked by K3), and - whenever the ghost is defined - the abstract tree state
   (finished subtrees, open frames, pending trivia) is identical to the one before the attempt and
   the concrete node vector represents it again.  A whole ordered choice leaves the snapshot stack
   as it was and only appends diagnostics and callbacks. *)
From Coq Require Import List Arith.
From LV Require Import Cst Tree ABuild Runtime Exec Refine RuntimeInv GhostStack.

Theorem C08_abandoned_attempt_leaves_no_trace :
  forall cx prog orc fuel rec_of body e st sv st0 o e2 st2,
  p_get_state st = (sv, st0) ->
  exec_block cx prog orc fuel rec_of body e st0 = XOk (o, e2, st2) ->
  let st3 := p_set_state (deletable prog) st2 sv in
  pos st3 = pos st /\ cur st3 = cur st /\ diags st3 = diags st
  /\ err_node st3 = err_node st /\ esa st3 = esa st
  /\ (exists l, log st3 = log st ++ l)
  /\ forall g3, gh st3 = Some g3 ->
       exists g, gh st = Some g /\ g_abs g3 = g_abs g
                 /\ g_snaps g3 = mkSnap (c_mark_truncation (cstd st)) (g_abs g) :: g_snaps g.
Proof. exact attempt_leaves_no_trace. Qed.

Theorem C08_tree_restored :
  forall cx prog orc fuel rec_of body e st sv st0 o e2 st2,
  RInv cx st ->
  p_get_state st = (sv, st0) ->
  exec_block cx prog orc fuel rec_of body e st0 = XOk (o, e2, st2) ->
  let st3 := p_set_state (deletable prog) st2 sv in
  gh st3 <> None ->
  RInv cx st3
  /\ exists g g3, gh st = Some g /\ gh st3 = Some g3 /\ g_abs g3 = g_abs g
     /\ Inv (cstd st) (snaps st) g /\ Inv (cstd st3) (snaps st3) g3.
Proof. exact attempt_restores_tree. Qed.

Theorem C08_choice_balanced :
  forall cx prog orc fuel rec_of a b alts lp last m e st o e' st',
  exec cx prog orc fuel rec_of (SOrdChoice a b alts lp last m) e st = XOk (o, e', st') -> G st st'.
Proof. exact ord_choice_balanced. Qed.

Print Assumptions C08_abandoned_attempt_leaves_no_trace.
Print Assumptions C08_tree_restored.
Print Assumptions C08_choice_balanced.
