(* C20 - the language server survives any session and answers from the latest text.
   Model: Model/Lsp.v (document store of lelwel-ls.rs / ide::Cache as a state machine over an
   abstract analysis; compat::position_to_offset and span_to_range over codespan).  The theorems
   hold for every analysis function, every history, text, position and offset.  Threads, transport,
   JSON and the analysis itself are not modelled; tools/k6_lspmodel.py ties the model to the code. *)
From Coq Require Import List Arith NArith Bool.
From LV Require Import Lsp LspPos LspProofs.
Import ListNotations.

Theorem C20_conformant_history_never_crashes :
  forall (A : Type) (analyse : text -> A) (h : history),
  conformant h = true -> ~ In Crash (run A analyse [] h).
Proof. exact conformant_never_crashes. Qed.

Theorem C20_outputs_are_those_of_the_latest_text :
  forall (A : Type) (analyse : text -> A) (h : history),
  run A analyse [] h = spec_run A analyse [] h.
Proof. exact run_is_latest. Qed.

Theorem C20_request_answered_from_latest_text :
  forall (A : Type) (analyse : text -> A) past k u line ch rest,
  let h := past ++ Request k u line ch :: rest in
  conformant h = true ->
  exists t l, latest past u = Some t /\ locate t k line ch = Some l
              /\ nth_error (run A analyse [] h) (length past) = Some (Answer k u (analyse t) l).
Proof. exact request_answered_from_latest. Qed.

Theorem C20_open_published_from_latest_text :
  forall (A : Type) (analyse : text -> A) past u t rest,
  nth_error (run A analyse [] (past ++ Open u t :: rest)) (length past) = Some (Publish u (analyse t))
  /\ latest (past ++ [Open u t]) u = Some t.
Proof. exact open_published_from_latest. Qed.

Theorem C20_change_published_from_latest_text :
  forall (A : Type) (analyse : text -> A) past u c r rest,
  nth_error (run A analyse [] (past ++ Change u (c :: r) :: rest)) (length past)
    = Some (Publish u (analyse (last r c)))
  /\ latest (past ++ [Change u (c :: r)]) u = Some (last r c).
Proof. exact change_published_from_latest. Qed.

Theorem C20_empty_change_is_silent :
  forall (A : Type) (analyse : text -> A) s u, step A analyse s (Change u []) = (s, Silent).
Proof. exact empty_change_is_silent. Qed.

Theorem C20_documents_are_independent :
  forall (A : Type) (analyse : text -> A) s o u,
  uri_of o <> u -> lookup u (fst (step A analyse s o)) = lookup u s.
Proof. exact step_other_document. Qed.

Theorem C20_one_publication_per_text_notification :
  forall (A : Type) (analyse : text -> A) h s u,
  map (publishes_for A u) (run A analyse s h) = map (carries_text_for u) h.
Proof. exact one_publication_per_text. Qed.

Theorem C20_request_without_document_crashes :
  forall (A : Type) (analyse : text -> A) s k u line ch,
  lookup u s = None -> step A analyse s (Request k u line ch) = (s, Crash).
Proof. exact request_without_document_crashes. Qed.

Theorem C20_request_on_closed_document_refuted :
  run_id [] [Request Hover 7 0 0] = [Crash]
  /\ run_id [] [Open 7 t1; Close 7; Request Completion 7 0 0] = [Publish 7 t1; Silent; Crash].
Proof. exact request_on_closed_document_refuted. Qed.

Theorem C20_position_to_offset_within_text :
  forall t l ch, position_to_offset t l ch <= blen t.
Proof. exact position_to_offset_le_len. Qed.

Theorem C20_position_to_offset_on_character_boundary :
  forall t l ch, exists k, k <= length t /\ position_to_offset t l ch = blen (firstn k t).
Proof. exact position_to_offset_boundary. Qed.

Theorem C20_position_to_offset_in_addressed_line :
  forall t l ch ln, nth_error (split_nl t) l = Some ln ->
  exists k, k <= length ln /\ position_to_offset t l ch = line_off t l + blen (firstn k ln).
Proof. exact position_to_offset_in_line. Qed.

Theorem C20_position_to_offset_missing_line_is_document_end :
  forall t l ch, nth_error (split_nl t) l = None -> position_to_offset t l ch = blen t.
Proof. exact position_to_offset_no_line. Qed.

Theorem C20_offset_to_position_inside_document :
  forall t k, exists l c ln,
  offset_to_position t (blen (firstn k t)) = Some (l, c)
  /\ nth_error (split_nl t) l = Some ln /\ c <= ulen ln.
Proof. exact offset_to_position_inside. Qed.

Theorem C20_offset_to_position_fails_off_boundary :
  forall t off, (forall k, off <> blen (firstn k t)) -> offset_to_position t off = None.
Proof. exact offset_to_position_none_off_boundary. Qed.

Theorem C20_round_trip :
  forall t k l c,
  no_cr (line_prefix (firstn k t)) = true ->
  offset_to_position t (blen (firstn k t)) = Some (l, c) ->
  position_to_offset t l c = blen (firstn k t).
Proof. exact round_trip. Qed.

Theorem C20_round_trip_refuted_inside_crlf :
  let t := [97; 13; 10]%N in
  offset_to_position t 2 = Some (0, 2) /\ position_to_offset t 0 2 = 1.
Proof. exact round_trip_refuted_inside_crlf. Qed.

Print Assumptions C20_conformant_history_never_crashes.
Print Assumptions C20_outputs_are_those_of_the_latest_text.
Print Assumptions C20_request_answered_from_latest_text.
Print Assumptions C20_open_published_from_latest_text.
Print Assumptions C20_change_published_from_latest_text.
Print Assumptions C20_empty_change_is_silent.
Print Assumptions C20_documents_are_independent.
Print Assumptions C20_one_publication_per_text_notification.
Print Assumptions C20_request_without_document_crashes.
Print Assumptions C20_request_on_closed_document_refuted.
Print Assumptions C20_position_to_offset_within_text.
Print Assumptions C20_position_to_offset_on_character_boundary.
Print Assumptions C20_position_to_offset_in_addressed_line.
Print Assumptions C20_position_to_offset_missing_line_is_document_end.
Print Assumptions C20_offset_to_position_inside_document.
Print Assumptions C20_offset_to_position_fails_off_boundary.
Print Assumptions C20_round_trip.
Print Assumptions C20_round_trip_refuted_inside_crlf.
