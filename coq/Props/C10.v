(* C10 - LL(1) conflicts are reported exactly where the grammar has them: alternations, loops and
   options of rules that are not left recursive and of every nested construct (first two theorems),
   the operator conflicts of left-recursive rules (third theorem) and the alternation of a
   left-recursive rule as a whole (fourth theorem).
   For all first/follow/predict maps, every regular expression x and enough fuel (analyse passes
   S (rsize x)): the transcription of LL1Validator::check reports E011/E013/E014 at a node iff
   the definition of a conflict holds there ([Conflict]: an unguarded branch shares a predict token
   with a later branch; an unguarded loop/option body shares a predict token with its follow set). *)
From Coq Require Import List Arith.
From LV Require Import Sema FirstSpec Conflicts.

Theorem C10_conflicts_reported_exactly :
  forall fi fo pr lf fuel x, rsize x <= fuel -> forall c n, is_ll1 c = true ->
  (In (c, n) (check_regex fi fo pr lf fuel x nil) <-> Conflict fo pr x c n).
Proof. exact check_regex_exact. Qed.

Theorem C10_conflict_free_iff_ll1 :
  forall fi fo pr lf x,
  (forall c n, is_ll1 c = true -> ~ In (c, n) (check_regex fi fo pr lf (S (rsize x)) x nil))
  <-> (forall c n, ~ Conflict fo pr x c n).
Proof. exact conflict_free_iff. Qed.

(* the operator part of a left-recursive rule: E012 is reported at an operator iff its branch has no
   leading predicate and the operator's predict set shares a token with the rule's outside follow
   (left_rec_local_follow) or with the operator of a later left-recursive branch *)
Theorem C10_operator_conflicts_exact :
  forall fi fo pr lf fuel id alts recs n,
  In (E012, n) (check_regex fi fo pr lf (S fuel) (RAlt id alts) recs) <-> OpConflict pr lf recs id n.
Proof. exact operator_conflicts_exact. Qed.

(* a left-recursive rule as a whole: its branches that are not left recursive are checked against each other like
   those of any alternation, and every construct nested in any branch as in the first theorem *)
Theorem C10_left_recursive_rule_alternation_exact :
  forall fi fo pr lf fuel id alts recs c n,
  is_ll1 c = true -> list_sum (map rsize alts) <= fuel ->
  (In (c, n) (check_regex fi fo pr lf (S fuel) (RAlt id alts) recs) <->
   (c = E011 /\ exists i op, nth_error (nonleft_of recs alts) i = Some op /\ n = rid_of op /\ has_predicate op = false
                 /\ exists j o, i < j /\ nth_error (nonleft_of recs alts) j = Some o
                                /\ share (get pr (rid_of op)) (get pr (rid_of o)))
   \/ exists o, In o alts /\ Conflict fo pr o c n).
Proof. exact top_alternation_exact. Qed.

Print Assumptions C10_conflicts_reported_exactly.
Print Assumptions C10_conflict_free_iff_ll1.
Print Assumptions C10_operator_conflicts_exact.
Print Assumptions C10_left_recursive_rule_alternation_exact.
