(* C01 - generated parsers build a lossless syntax tree for every input.
   Statement pins, [exact] and Print Assumptions only. *)
From Coq Require Import List.
From LV Require Import Cst Tree ABuild Runtime Exec Refine ExecInv ChildrenWalk.
Import ListNotations.

(* the token cells of the pre-order layout of a tree are its leaves, in order *)
Theorem C01_tok_cells_flatten : forall t, tok_cells (flatten t) = leaves t.
Proof. exact tok_cells_flatten. Qed.

(* a valid builder history closed at the root yields the layout of the reference tree,
   and decoding that layout gives the tree back (so walking it visits exactly its cells) *)
Theorem C01_close_root : forall c sn g m k t,
  Inv c sn g -> a_close_root (g_abs g) m k = Some t ->
  exists c', c_close_root c m k = Ok c' /\ nodes c' = flatten t.
Proof. exact close_root_refines. Qed.

Theorem C01_decode_flatten : forall t, decode (flatten t) = Some t.
Proof. exact decode_flatten. Qed.

(* Execution level, for every program of the command language (hence for whatever the back end
   emits, as translated on every run), every token sequence, every predicate/assertion oracle and
   every fuel: if the parse returns and the builder discipline was respected (ghost defined), the
   node vector is the layout of a tree whose leaves are exactly the input tokens in input order,
   each with its index into the span table. *)
Theorem C01_lossless_exec : forall cx prog orc fuel r root msg st,
  parse_entry cx prog orc fuel r root msg = XOk st ->
  gh st <> None ->
  exists t,
    nodes (cstd st) = flatten t
    /\ decode (nodes (cstd st)) = Some t
    /\ leaves t = combine (toks cx) (seq 0 (length (toks cx))).
Proof. exact parse_entry_tree. Qed.

(* the public child iterator on such a layout yields exactly the roots of the child subtrees, in order *)
Theorem C01_children_are_the_subtree_roots : forall c k cs,
  nodes c = flatten (TNode k cs) -> c_children c 0 = Ok (child_offsets cs 1).
Proof. exact children_of_root. Qed.

Print Assumptions C01_lossless_exec.
Print Assumptions C01_children_are_the_subtree_roots.
Print Assumptions C01_tok_cells_flatten.
Print Assumptions C01_close_root.
Print Assumptions C01_decode_flatten.
