(* C16 - skipped tokens are transparent: the clause "lookahead offered to predicates never sees a
   skipped token", and its counterpart for the parser's own one-token lookahead.  For every program
   of the command language, every input, oracle and fuel: every rule function (and every statement)
   entered with the current token at the cursor and not skipped returns in such a state; init_skip
   establishes that state; peek and peek_left return non-skipped tokens or the end-of-input marker.
   The main clause (inserting or removing skipped tokens changes neither tree nor diagnostics) is
   decided by the K1/K3 correspondence and the trivia-pair oracle, not by a theorem. *)
From Coq Require Import List Arith.
From LV Require Import Cst Tree ABuild Runtime Exec NoSkip.

Theorem C16_init_skip_establishes : forall cx st, NS cx (p_init_skip cx st).
Proof. exact ns_init_skip. Qed.

Theorem C16_current_token_never_skipped :
  forall cx prog orc fuel f st some st',
  call_fn cx prog orc fuel f st = XOk (some, st') -> NS cx st -> NS cx st'.
Proof. exact call_fn_no_skip. Qed.

Theorem C16_every_statement :
  forall cx prog orc fuel rec_of s e st o e' st',
  exec cx prog orc fuel rec_of s e st = XOk (o, e', st') -> NS cx st -> NS cx st'.
Proof. exact exec_no_skip. Qed.

Theorem C16_predicate_lookahead_never_skipped :
  forall cx st n,
  (p_peek cx st n = eoi cx \/ is_skipped cx (p_peek cx st n) = false)
  /\ (p_peek_left cx st n = eoi cx \/ is_skipped cx (p_peek_left cx st n) = false).
Proof. intros cx st n. split; [apply peek_no_skip|apply peek_left_no_skip]. Qed.

Print Assumptions C16_init_skip_establishes.
Print Assumptions C16_current_token_never_skipped.
Print Assumptions C16_every_statement.
Print Assumptions C16_predicate_lookahead_never_skipped.
