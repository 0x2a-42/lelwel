(* C13 - reading a grammar file recovers what was written: the LEXING stage, on the model of
   src/frontend/lexer.rs.  For every list of well-formed lexical items (tokens of every class and trivia:
   whitespace, line, doc and block comments) in which no item can fuse with the text behind it (`layout_ok`:
   boolean; a separator may be empty wherever `nofuse` holds), lexing the rendered text returns exactly these
   items - kinds, byte spans - and no diagnostic.  The side condition is necessary: where it fails, the first
   token cut from the text is not the item.  `lex_interleaved` is the same statement in the shape
   "tokens and layouts between them", and filtering the trivia out of that shape gives the written
   tokens back (third theorem).  The parser / typed-view half of C13 is decided by exploration. *)
From Coq Require Import List NArith Arith Bool.
From LV Require Import Lexer LexerProofs LexerReadback.

Theorem C13_lexer_reads_back_items :
  forall items, layout_ok items = true -> lex (render_all items) = (expected 0 items, nil).
Proof. exact lex_items. Qed.

Theorem C13_lexer_reads_back_tokens_and_layouts :
  forall lay0 toks, grammar_ok lay0 toks = true ->
  lex (render_all (interleave lay0 toks)) = (expected 0 (interleave lay0 toks), nil).
Proof. exact lex_interleaved. Qed.

Theorem C13_written_tokens_are_the_non_trivia_items :
  forall toks lay0,
  forallb is_trivia lay0 = true ->
  forallb (fun p => negb (is_trivia (fst p)) && forallb is_trivia (snd p)) toks = true ->
  filter (fun a => negb (is_trivia a)) (interleave lay0 toks) = map fst toks.
Proof. exact interleave_tokens. Qed.

Theorem C13_separator_condition_is_necessary :
  forall a rest, wf a = true -> nofuse a rest = false ->
  first_chunk (render a ++ rest) <> Some (chunk_of a).
Proof. exact nofuse_necessary. Qed.

Print Assumptions C13_lexer_reads_back_items.
Print Assumptions C13_lexer_reads_back_tokens_and_layouts.
Print Assumptions C13_written_tokens_are_the_non_trivia_items.
Print Assumptions C13_separator_condition_is_necessary.
